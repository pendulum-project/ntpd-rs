(* C32  Time arithmetic is exact, era-safe and never panics.
   Property theorems; the lemmas behind them are in Proofs/TimeTypes.v and Proofs/FloatConvSat.v.

   The model (Model/TimeTypes.v) is that of the REPAIRED code (branch fix-c32:
   saturating_neg / saturating_abs / saturating_div in NtpDuration,
   saturating_add/sub(1) in PollInterval::inc/dec).  On the unrepaired tree the
   correspondence fails at i64::MIN and the check reports the concrete input
   (C32_unrepaired_refuted is the same fact inside the model).

   [saturates_i64 exact result]: result = exact when exact fits i64, i64::MAX
   when exact is above, i64::MIN when below (saturates_i128 likewise).
   [no_wrap exact result]: result has the sign of exact and is no larger in
   magnitude.  Division by the scalar 0 panics in the code (as integer
   division does, also in statime-base's saturating_div); reading chosen: the
   property's "scaling never panics" is about non-zero scalars
   (C32_div states the panic happens exactly for k = 0). *)
From V Require Import Model.TimeRun Proofs.TimeTypes Proofs.FloatConv Proofs.FloatConvSat.
(* Model.TimeRun is the dispatcher the correspondence check evaluates; importing it keeps it in the cone *)

(* Subtracting two NTP timestamps yields the shortest signed difference
   across era boundaries: the result is in the i64 range, congruent to a - b
   modulo 2^64, of minimal magnitude among all representatives, and the only
   such value *)
Theorem C32_sub_shortest : forall a b,
  in_i64 (tsub a b) /\
  (exists k, tsub a b = (a - b) + k * 2 ^ 64) /\
  (forall k, Z.abs (tsub a b) <= Z.abs ((a - b) + k * 2 ^ 64)) /\
  (forall d, in_i64 d -> (exists k, d = (a - b) + k * 2 ^ 64) -> d = tsub a b).
Proof. intros a b. exact (signed_diff_spec 64 a b eq_refl). Qed.

(* era safety on true (unbounded) instants *)
Theorem C32_sub_era : forall ta tb,
  in_i64 (ta - tb) -> tsub (ta mod 2 ^ 64) (tb mod 2 ^ 64) = ta - tb.
Proof. exact tsub_era. Qed.

(* ... and adding it back restores the timestamp (all 64-bit timestamps) *)
Theorem C32_add_back : forall a b, in_u64 a -> in_u64 b ->
  tadd b (tsub a b) = a /\ tsubd a (tsub a b) = b.
Proof.
  intros a b Ha Hb. exact (conj (wrap_add_signed_diff 64 eq_refl a b Ha) (wrap_sub_signed_diff 64 eq_refl a b Hb)).
Qed.

(* adding a duration to a timestamp and subtracting it again, either way, gives back what one
   started from; the results stay 64-bit timestamps *)
Theorem C32_add_then_sub : forall t d, in_u64 t -> in_i64 d ->
  in_u64 (tadd t d) /\ in_u64 (tsubd t d) /\
  tsub (tadd t d) t = d /\ tsubd (tadd t d) d = t.
Proof.
  intros t d Ht Hd. split; [apply Z.mod_pos_bound; lia|]. split; [apply Z.mod_pos_bound; lia|].
  exact (conj (signed_diff_wrap_add 64 eq_refl t d Hd) (wrap_sub_wrap_add 64 t d Ht)).
Qed.

(* duration addition, subtraction and scaling saturate instead of wrapping
   (total functions in the model: no panic site) *)
Theorem C32_dur_saturating : forall a b k,
  saturates_i64 (a + b) (dadd a b) /\ saturates_i64 (a - b) (dsub a b) /\
  saturates_i64 (a * k) (dmul a k) /\
  no_wrap (a + b) (dadd a b) /\ no_wrap (a - b) (dsub a b) /\ no_wrap (a * k) (dmul a k).
Proof.
  intros. split; [apply sat_i64_saturates|]. split; [apply sat_i64_saturates|].
  split; [apply sat_i64_saturates|]. split; [apply sat_i64_no_wrap|].
  split; apply sat_i64_no_wrap.
Qed.

(* negation and absolute value saturate (repaired code) *)
Theorem C32_neg_abs : forall a,
  saturates_i64 (- a) (dneg a) /\ saturates_i64 (Z.abs a) (dabs a) /\
  0 <= dabs a /\ no_wrap (- a) (dneg a).
Proof.
  intros. split; [apply sat_i64_saturates|]. split; [apply sat_i64_saturates|].
  split; [apply dabs_nonneg|apply sat_i64_no_wrap].
Qed.

(* abs_diff (saturating sub, then saturating abs) saturates as one operation and is never negative *)
Theorem C32_abs_diff : forall a b, in_i64 a -> in_i64 b ->
  saturates_i64 (Z.abs (a - b)) (dabs_diff a b) /\ 0 <= dabs_diff a b.
Proof.
  (* by the three cases of the inner saturating subtraction *)
  intros a b Ha Hb. unfold dabs_diff. split; [|apply dabs_nonneg].
  destruct (sat_i64_saturates (a - b)) as (Hin & Hhi & Hlo). fold (dsub a b) in Hin, Hhi, Hlo.
  unfold in_i64 in *.
  assert (C : - 2 ^ 63 <= a - b < 2 ^ 63 \/ a - b >= 2 ^ 63 \/ a - b < - 2 ^ 63) by lia.
  destruct C as [C|[C|C]].
  - rewrite (Hin C). apply sat_i64_saturates.
  - rewrite (Hhi C). change (dabs (2 ^ 63 - 1)) with (2 ^ 63 - 1). unfold saturates_i64, in_i64. lia.
  - rewrite (Hlo C), dabs_min. unfold saturates_i64, in_i64. lia.
Qed.

(* division by a scalar: saturates (only i64::MIN / -1 is affected), panics
   exactly when the scalar is zero *)
Theorem C32_div : forall a k,
  (k <> 0 -> exists r, ddiv a k = Ok r /\ saturates_i64 (Z.quot a k) r) /\
  ((exists s, ddiv a k = Panic s) <-> k = 0) /\
  (in_i64 a -> k <> 0 -> ~ (a = - 2 ^ 63 /\ k = -1) -> ddiv a k = Ok (Z.quot a k)).
Proof.
  intros a k. split; [apply ddiv_saturates|]. split; [apply ddiv_panic_iff|apply ddiv_exact].
Qed.

(* the code before the repair violates the three statements above at i64::MIN *)
Theorem C32_unrepaired_refuted :
  (exists a, in_i64 a /\ ~ saturates_i64 (- a) (dneg_wrap a)) /\
  (exists a, in_i64 a /\ ~ saturates_i64 (Z.abs a) (dabs_wrap a) /\ dabs_wrap a < 0) /\
  (exists a k, in_i64 a /\ k <> 0 /\ exists s, ddiv_unrepaired a k = Panic s).
Proof.
  split; [|split].
  - exists (- 2 ^ 63). split; [unfold in_i64; pows; lia|].
    intros [_ [H _]]. specialize (H ltac:(pows; lia)). vm_compute in H. discriminate.
  - exists (- 2 ^ 63). split; [unfold in_i64; pows; lia|]. split.
    + intros [_ [H _]]. specialize (H ltac:(pows; lia)). vm_compute in H. discriminate.
    + vm_compute. reflexivity.
  - exists (- 2 ^ 63), (-1). split; [unfold in_i64; pows; lia|]. split; [lia|].
    exists 2. reflexivity.
Qed.

(* non-negative durations that fit the short (16.16) and time32 (4.28) wire
   formats encode and decode to within one unit of those formats; larger ones
   saturate; decoding then encoding is the identity; the only panic site is
   the assertion on negative durations *)
Theorem C32_short_time32 :
  (forall d, 0 <= d < 2 ^ 48 ->
     exists w, d_to_short d = Ok w /\ in_u32 w /\ d_from_short w <= d < d_from_short w + 2 ^ 16) /\
  (forall d, 0 <= d < 2 ^ 36 ->
     exists w, d_to_time32 d = Ok w /\ in_u32 w /\ d_from_time32 w <= d < d_from_time32 w + 2 ^ 4) /\
  (forall w, in_u32 w -> d_to_short (d_from_short w) = Ok w /\ d_to_time32 (d_from_time32 w) = Ok w) /\
  (forall d, 2 ^ 48 <= d -> d_to_short d = Ok (2 ^ 32 - 1)) /\
  (forall d, 2 ^ 36 <= d -> d_to_time32 d = Ok (2 ^ 32 - 1)) /\
  (forall d, ((exists s, d_to_short d = Panic s) <-> d < 0) /\
             ((exists s, d_to_time32 d = Panic s) <-> d < 0)).
Proof.
  (* both encoders are min (d >> s) u32::MAX on d >= 0 (to_short_eq, to_time32_eq); the rest is
     / and mod by constants *)
  change (2 ^ 36) with 68719476736. unfold in_u32, d_from_short, d_from_time32. pows.
  split; [|split; [|split; [|split; [|split]]]].
  - intros d Hd. rewrite to_short_eq by lia. eexists. split; [reflexivity|]. pows.
    Z.div_mod_to_equations. lia.
  - intros d Hd. rewrite to_time32_eq by lia. eexists. split; [reflexivity|]. pows.
    Z.div_mod_to_equations. lia.
  - intros w Hw. rewrite to_short_eq, to_time32_eq by lia. pows. rewrite !Z.div_mul by lia.
    split; f_equal; lia.
  - intros d Hd. rewrite to_short_eq by lia. pows. f_equal. Z.div_mod_to_equations. lia.
  - intros d Hd. rewrite to_time32_eq by lia. pows. f_equal. Z.div_mod_to_equations. lia.
  - intros d. split; [apply short_panic_iff|apply time32_panic_iff].
Qed.

(* poll intervals: inc/dec/force_inc stay within i8 and the limits, never wrap *)
Theorem C32_poll : forall p lmin lmax, in_i8 p -> in_i8 lmin -> in_i8 lmax ->
  (in_i8 (poll_inc p lmax) /\ poll_inc p lmax <= lmax /\
   (p < lmax -> poll_inc p lmax = p + 1) /\ (lmax <= p -> poll_inc p lmax = lmax)) /\
  (in_i8 (poll_dec p lmin) /\ lmin <= poll_dec p lmin /\
   (lmin < p -> poll_dec p lmin = p - 1) /\ (p <= lmin -> poll_dec p lmin = lmin)) /\
  (in_i8 (poll_force_inc p) /\ p <= poll_force_inc p /\
   (p < 127 -> poll_force_inc p = p + 1) /\ (p = 127 -> poll_force_inc p = 127)) /\
  (1 <= poll_as_duration p <= 2 ^ 62 /\ (-32 <= p <= 30 -> poll_as_duration p = 2 ^ (p + 32))).
Proof.
  intros p lmin lmax Hp Hmin Hmax.
  split; [apply poll_inc_spec; assumption|]. split; [apply poll_dec_spec; assumption|].
  split; [apply poll_force_inc_spec; assumption|apply poll_as_duration_range; assumption].
Qed.

(* The PTP timestamp and duration types obey the same wrapping and saturating
   laws (128 bit) *)
Theorem C32_ptp : forall a b k,
  (in_i128 (ptsub a b) /\ (exists j, ptsub a b = (a - b) + j * 2 ^ 128) /\
   (forall j, Z.abs (ptsub a b) <= Z.abs ((a - b) + j * 2 ^ 128))) /\
  (in_u128 a -> in_u128 b -> ptadd b (ptsub a b) = a /\ ptsubd a (ptsub a b) = b) /\
  (in_i128 b -> ptsub (ptadd a b) a = b) /\
  saturates_i128 (a + b) (pdadd a b) /\ saturates_i128 (a - b) (pdsub a b) /\
  saturates_i128 (a * k) (pdmul a k) /\
  (k <> 0 -> exists r, pddiv a k = Ok r /\ saturates_i128 (Z.quot a k) r) /\
  ((exists s, pddiv a k = Panic s) <-> k = 0).
Proof.
  intros a b k.
  split; [destruct (signed_diff_spec 128 a b eq_refl) as (R & E & S & _); exact (conj R (conj E S))|].
  split; [intros Ha Hb; exact (conj (wrap_add_signed_diff 128 eq_refl a b Ha) (wrap_sub_signed_diff 128 eq_refl a b Hb))|].
  split; [exact (signed_diff_wrap_add 128 eq_refl a b)|].
  split; [apply sat_i128_saturates|]. split; [apply sat_i128_saturates|].
  split; [apply sat_i128_saturates|]. split; [apply pddiv_saturates|apply pddiv_panic_iff].
Qed.

(* PARTIAL.  Full statement wanted: for the binary64 model,
     forall d, in_i64 d -> ~ KnownClass_C32_roundtrip d ->
       Z.abs (from_seconds (to_seconds d) - d) * 10^9 < Z.abs d + 10^9
   (without the class exclusion it is refuted, see C32_roundtrip_refuted),
   (sign preservation and saturation of from_seconds ARE proved on the
   binary64 model for all doubles: C32_from_seconds_saturates, C32_from_seconds_sign).
   Proved here: the bound for the same computation in EXACT arithmetic
   ([roundtrip_exact]: seconds = d/(2^32-1), floor, fraction times 2^32-1,
   same saturation tests), i.e. the part of the error that is designed in
   (dividing by 2^32-1 and reassembling with 2^32; about 2.3e-10 |d|), and
   sign preservation of that exact round trip.  Missing: the rounding errors
   of the four binary64 operations (relative 2^-53 each, i.e. below
   |d| 2^-50 units) are not bounded by a theorem; the binary64 model
   ([to_seconds], [from_seconds], bit-exact, executable) is compared with the
   code on every run and the driver's monitor evaluates the 1e-9 bound on
   every round-trip case. *)
Theorem C32_roundtrip_partial : forall d, in_i64 d ->
  Z.abs (roundtrip_exact d - d) * 10 ^ 9 < Z.abs d + 10 ^ 9 /\
  (0 <= d -> d <= roundtrip_exact d) /\ (d < 0 -> roundtrip_exact d < 0).
Proof.
  (* with i = d / (2^32-1) and r = d mod (2^32-1) the result is i * 2^32 + r = d + i, or saturated *)
  intros d Hd. unfold roundtrip_exact. cbv zeta. unfold_ranges.
  pose proof (Z.div_mod d (2 ^ 32 - 1) ltac:(lia)) as Hdm.
  pose proof (Z.mod_pos_bound d (2 ^ 32 - 1) ltac:(lia)) as Hr.
  set (i := d / (2 ^ 32 - 1)) in *. set (r := d mod (2 ^ 32 - 1)) in *. clearbody i r.
  destruct (Z.leb_spec (- 2 ^ 31) i); [destruct (Z.leb_spec i (2 ^ 31 - 1))|];
    cbn [andb]; [replace (i * 2 ^ 32 + r) with (d + i) by lia|destruct (Z.ltb_spec i (- 2 ^ 31))..]; lia.
Qed.

(* REFUTED on the code.  The statement
   "converting a duration to seconds and back changes it by less than one part
   per billion plus one unit", i.e. [roundtrip_bound d] for all d, is FALSE for
   the code: the bit-exact binary64 model returns d - 2 for d = -2100223
   (-0.49 ms), where the allowance is 1.002 units; the implementation returns
   the same (replayed by the driver on every run).  About 4e7 durations fail,
   all in [KnownClass_C32_roundtrip] = (-10^9, -2^21] units; an exhaustive
   run of the same arithmetic over [-2*10^9, 3*10^9) finds no failure outside
   the class and none with an error above 2 units.  Not repaired by fix-c32
   (a candidate one-line repair: round the fractional product instead of
   truncating it). *)
Theorem C32_roundtrip_refuted :
  exists d, in_i64 d /\ KnownClass_C32_roundtrip d /\
            from_seconds (to_seconds d) = d - 2 /\ ~ roundtrip_bound d.
Proof.
  exists (-2100223). split; [unfold in_i64; lia|]. split; [unfold KnownClass_C32_roundtrip; lia|].
  assert (E : from_seconds (to_seconds (-2100223)) = -2100223 - 2) by (vm_compute; reflexivity).
  split; [exact E|]. unfold roundtrip_bound. rewrite E. lia.
Qed.

(* conversion from seconds on the binary64 model at the boundary values, by
   evaluation (instances of the two theorems below, plus the exact values
   next to the thresholds): 2^31 s and f64::MAX saturate to i64::MAX,
   the double just below 2^31 does not, -2^31 s and below give i64::MIN,
   signs of the smallest subnormals and of the zeros are preserved *)
Theorem C32_from_seconds_boundaries :
  from_seconds (sf_of_bits f64_bits_2p31) = i64_max /\
  from_seconds (sf_of_bits f64_bits_below_2p31) = 2 ^ 63 - 2 ^ 32 + 4294966271 /\
  from_seconds (sf_of_bits f64_bits_m2p31) = i64_min /\
  from_seconds (sf_of_bits f64_bits_below_m2p31) = i64_min /\
  from_seconds (sf_of_bits f64_bits_max) = i64_max /\
  from_seconds (sf_of_bits (f64_bits_max + 2 ^ 63)) = i64_min /\
  from_seconds (sf_of_bits f64_bits_min_pos) = 0 /\
  from_seconds (sf_of_bits f64_bits_neg_tiny) = -1 /\
  from_seconds (sf_of_bits 0) = 0 /\ from_seconds (sf_of_bits (2 ^ 63)) = 0.
Proof. vm_compute. repeat split; reflexivity. Qed.

(* Conversion from seconds saturates and preserves the sign, on the bit-exact
   binary64 model, for EVERY 64-bit pattern b (all finite floating-point
   seconds; infinities included in the first theorem, NaN excluded):
   - magnitude >= 2^31 s (biased exponent field >= 1023+31): the result is
     i64::MAX for positive and i64::MIN for negative inputs;
   - every finite input: the result is non-negative for a clear sign bit and
     non-positive for a set sign bit (in particular +-0 -> 0), and the code's
     `(i << 32) | frac` never leaves the i64 range.
   The proof follows the code: floor, the rounded subtraction x - floor x
   stays in [0,1], the rounded product with 2^32-1 stays in [0, 2^32-1]
   (monotonicity of rounding, Flocq), truncation, shift and or. *)
Theorem C32_from_seconds_saturates : forall b, 0 <= b < 2 ^ 64 ->
  1054 <= (b / 2 ^ 52) mod 2 ^ 11 ->
  ((b / 2 ^ 52) mod 2 ^ 11 = 2047 -> b mod 2 ^ 52 = 0) ->
  from_seconds (sf_of_bits b) = if Z.testbit b 63 then i64_min else i64_max.
Proof. exact from_seconds_saturates_bits. Qed.

(* every finite pattern (zeros and subnormals included): the result is in the i64 range and has
   the sign of the sign bit, 0 counting as either *)
Theorem C32_from_seconds_sign : forall b, 0 <= b < 2 ^ 64 ->
  (b / 2 ^ 52) mod 2 ^ 11 <> 2047 ->
  let r := from_seconds (sf_of_bits b) in
  in_i64 r /\ (if Z.testbit b 63 then r <= 0 else 0 <= r).
Proof.
  intros b Hb Hfin r. unfold r.
  destruct (Z.le_gt_cases 1054 ((b / 2 ^ 52) mod 2 ^ 11)) as [Hbig|Hsmall].
  - rewrite from_seconds_saturates_bits by (try assumption; intro; contradiction).
    destruct (Z.testbit b 63); unfold in_i64, i64_min, i64_max; pows; lia.
  - destruct (sf_of_bits_finite b Hfin) as [[_ ->]|[m [e [-> [Hbd [Hm [He _]]]]]]].
    + destruct (Z.testbit b 63); vm_compute; split; try split; congruence.
    + destruct (from_seconds_finite (Z.testbit b 63) m e Hbd Hm) as [_ [_ Hmid]].
      destruct (floorZ_small (Z.testbit b 63) m e Hm ltac:(lia)) as [Hz Hs].
      destruct (Hmid Hz) as [t [Ht ->]]. split; [unfold in_i64; pows; lia|].
      destruct (Z.testbit b 63); lia.
Qed.

(* non-vacuity: an era-crossing difference, saturating sums, i64::MIN *)
Example C32_nonvacuous :
  tsub 5 (2 ^ 64 - 7) = 12 /\ tadd (2 ^ 64 - 7) 12 = 5 /\
  tsub 0 (2 ^ 63) = - 2 ^ 63 /\
  dadd (2 ^ 63 - 1) 1 = 2 ^ 63 - 1 /\ dsub (- 2 ^ 63) 1 = - 2 ^ 63 /\
  dmul (2 ^ 62) (-3) = - 2 ^ 63 /\
  dneg (- 2 ^ 63) = 2 ^ 63 - 1 /\ dabs (- 2 ^ 63) = 2 ^ 63 - 1 /\
  ddiv (- 2 ^ 63) (-1) = Ok (2 ^ 63 - 1) /\ ddiv 7 0 = Panic 1 /\ ddiv (-7) 2 = Ok (-3) /\
  d_to_short (2 ^ 32 + 2 ^ 15) = Ok (2 ^ 16) /\
  poll_inc 127 10 = 10 /\ poll_dec (-128) 4 = 4 /\
  pdadd (2 ^ 127 - 1) 5 = 2 ^ 127 - 1 /\ pddiv (- 2 ^ 127) (-1) = Ok (2 ^ 127 - 1) /\
  roundtrip_exact (-1) = -2 /\ from_seconds (to_seconds (-1)) = -2 /\
  from_seconds (to_seconds (2 ^ 40 + 12345)) = 2 ^ 40 + 12345 + 255 /\ roundtrip_exact (2 ^ 40 + 12345) = 2 ^ 40 + 12345 + 256.
Proof. vm_compute. repeat split; reflexivity. Qed.

Print Assumptions C32_sub_shortest.
Print Assumptions C32_sub_era.
Print Assumptions C32_add_back.
Print Assumptions C32_add_then_sub.
Print Assumptions C32_dur_saturating.
Print Assumptions C32_neg_abs.
Print Assumptions C32_abs_diff.
Print Assumptions C32_div.
Print Assumptions C32_unrepaired_refuted.
Print Assumptions C32_short_time32.
Print Assumptions C32_poll.
Print Assumptions C32_ptp.
Print Assumptions C32_roundtrip_partial.
Print Assumptions C32_roundtrip_refuted.
Print Assumptions C32_from_seconds_boundaries.
Print Assumptions C32_from_seconds_saturates.
Print Assumptions C32_from_seconds_sign.
