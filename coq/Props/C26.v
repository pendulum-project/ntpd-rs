(* C26  Server cookies are confidential, tamper-evident and rotate on schedule.
   Property theorems; the lemmas they rest on are in Proofs/KeySet.v, the model of
   ntp-proto/src/keyset.rs in Model/KeySet.v.

   Every theorem is closed over the AEAD: [enc]/[dec] are universally
   quantified and the assumptions about them appear as premises
   (aead_correct, aead_sound, aead_tag16, aead_bytes: facts of AES-SIV;
   aead_key_separation and the [unforged] premise of C26_tamper: the
   idealisation "forgery probability zero").  Confidentiality proper (nothing
   about the session keys can be computed from a cookie without the server
   key) is the AEAD's and is NOT proved here. *)
From V Require Import Model.KeySet Proofs.KeySet.

(* A cookie decodes, under the key set that issued it, to exactly the session
   keys and algorithm it was made from (every key set with a valid primary
   index, every well-formed cookie, every nonce). *)
Theorem C26_roundtrip : forall (enc : enc_t) (dec : dec_t),
  aead_correct enc dec -> aead_tag16 enc ->
  forall ks c nonce, KeysOk ks -> wf_cookie c -> lenZ nonce = 16 ->
  exists b, encode_cookie enc ks c nonce = Ok b /\ decode_cookie dec ks b = Ok c.
Proof. exact roundtrip. Qed.

(* The rotation window.  Start from any key set whose primary is its newest
   key ([new_keyset], or a restored one), rotate |fs1| times, issue a cookie,
   rotate |fs2| more times with history [h] (any h, 0 included; any fresh
   keys, fewer than 2^32 keys in total): the cookie decodes to its content
   iff |fs2| <= h, and is rejected with DecryptError otherwise. *)
Theorem C26_window : forall (enc : enc_t) (dec : dec_t),
  aead_correct enc dec -> aead_tag16 enc ->
  forall (h : nat) ks0 (fs1 fs2 : list bytes) c nonce,
  newest ks0 -> wf_cookie c -> lenZ nonce = 16 ->
  lenZ (keys ks0) + lenZ fs1 + lenZ fs2 < 2 ^ 32 ->
  let ks1 := rotate_many h ks0 fs1 in
  let ks2 := rotate_many h ks1 fs2 in
  exists b, encode_cookie enc ks1 c nonce = Ok b /\
    decode_cookie dec ks2 b = if (length fs2 <=? h)%nat then Ok c else Err err_decrypt.
Proof. exact window. Qed.

(* The same for a cookie issued under any valid primary index (a restored key
   set need not have its newest key as primary): it survives exactly as long
   as the issuing key has not been dropped. *)
Theorem C26_window_any_primary : forall (enc : enc_t) (dec : dec_t),
  aead_correct enc dec -> aead_tag16 enc ->
  forall (h : nat) ks (fs : list bytes) c nonce,
  KeysOk ks -> wf_cookie c -> lenZ nonce = 16 -> lenZ (keys ks) + lenZ fs < 2 ^ 32 ->
  exists b, encode_cookie enc ks c nonce = Ok b /\
    decode_cookie dec (rotate_many h ks fs) b =
      if (match fs with
          | [] => true
          | _ => (length (keys ks) + length fs - (h + 1) <=? Z.to_nat (primary ks))%nat
          end)
      then Ok c else Err err_decrypt.
Proof. exact window_general. Qed.

(* Whatever decodes is, within its declared length, byte for byte the encoding
   under one of the current keys of exactly what it decodes to (no premise on
   the bytes presented, no idealisation). *)
Theorem C26_decodes_only_genuine : forall (enc : enc_t) (dec : dec_t),
  aead_sound enc dec -> aead_bytes dec ->
  forall ks b c, decode_cookie dec ks b = Ok c ->
  exists i k, nth_error (keys ks) i = Some k /\
    Z.of_nat i = wrap 32 (ck_id b - id_offset ks) /\
    hdr_len <= lenZ b /\ ck_len b <= lenZ (skipn (Z.to_nat hdr_len) b) /\
    dec k (ck_nonce b) [] (ck_ct b) = Some (plaintext c) /\
    ck_ct b = enc k (ck_nonce b) [] (plaintext c) /\ wf_cookie c.
Proof. exact decode_genuine. Qed.

(* Tamper evidence.  [b] is a cookie issued by [ks]; [b'] is any byte string
   that differs from [b] somewhere within [b]'s length (a modified, truncated
   or modified-and-extended cookie; its 6 header bytes are bytes).  If [b']
   carries no forged ciphertext -- i.e. whenever its ciphertext part is valid
   under a server key it is the (key, nonce, ciphertext) of [b] itself
   ([unforged], INT-CTXT for one observed cookie) -- then [b'] is rejected.
   In particular a change of the unauthenticated id or length field, or of the
   nonce, is always caught.  The keys of the set must be distinct. *)
Theorem C26_tamper : forall (enc : enc_t) (dec : dec_t),
  aead_sound enc dec -> aead_tag16 enc -> aead_bytes dec ->
  forall ks c nonce b b',
  KeysOk ks -> NoDup (keys ks) -> wf_cookie c -> lenZ nonce = 16 ->
  encode_cookie enc ks c nonce = Ok b ->
  bytes_ok (firstn 6 b') -> firstn (length b) b' <> b ->
  (forall k, nth_error (keys ks) (Z.to_nat (primary ks)) = Some k ->
     unforged dec ks [(k, nonce, enc k nonce [] (plaintext c))] b') ->
  decode_cookie dec ks b' = Err err_decrypt.
Proof. exact tamper. Qed.

(* A cookie issued under a key that is not among the current keys does not
   decode (needs the key-separation idealisation). *)
Theorem C26_foreign : forall (enc : enc_t) (dec : dec_t),
  aead_tag16 enc -> aead_key_separation enc dec ->
  forall ks ksf c nonce b,
  KeysOk ksf -> wf_cookie c -> lenZ nonce = 16 ->
  encode_cookie enc ksf c nonce = Ok b ->
  Forall bytes_ok (keys ks) -> Forall bytes_ok (keys ksf) ->
  (forall k, nth_error (keys ksf) (Z.to_nat (primary ksf)) = Some k -> ~ In k (keys ks)) ->
  decode_cookie dec ks b = Err err_decrypt.
Proof. exact foreign. Qed.

(* After every rotation the primary key is the newest key (the one just
   generated), and encode_cookie encrypts under it. *)
Theorem C26_newest_key : forall (enc : enc_t) (dec : dec_t) (h : nat) ks (fs : list bytes) f c nonce,
  lenZ (keys ks) + lenZ fs + 1 < 2 ^ 32 ->
  let ks' := rotate_many h ks (fs ++ [f]) in
  newest ks' /\ last (keys ks') [] = f /\
  encode_cookie enc ks' c nonce =
    Ok (be_enc 4 (wrap 32 (primary ks' + id_offset ks'))
        ++ be_enc 2 (wrap 16 (lenZ (enc f nonce [] (plaintext c)))) ++ nonce ++ enc f nonce [] (plaintext c)).
Proof.
  intros enc dec h ks fs f c nonce Hb ks'. subst ks'. rewrite rotate_many_snoc.
  set (ks1 := rotate_many h ks fs).
  pose proof (rotate_many_length_le h fs ks) as Hl. fold ks1 in Hl.
  assert (Hn : newest (rotate h ks1 f)) by (apply rotate_newest; lia).
  split; [exact Hn|]. split; [cbn [rotate keys]; apply last_last|].
  destruct Hn as [Hok Hp]. destruct (encode_ok enc dec (rotate h ks1 f) c nonce Hok) as (k & Hk & ->).
  replace k with f; [reflexivity|].
  (* the primary index is that of the last key *)
  rewrite Hp in Hk. cbn [rotate keys] in Hk. set (l := skipn _ (keys ks1)) in Hk.
  replace (Z.to_nat (lenZ (l ++ [f]) - 1)) with (length l) in Hk by (unfold lenZ; rewrite app_length; cbn [length]; lia).
  rewrite nth_error_app2, Nat.sub_diag in Hk by lia. cbn in Hk. congruence.
Qed.

(* the initial key set of KeySetProvider::new is of that form too *)
Theorem C26_new_is_newest : forall k, newest (new_keyset k).
Proof. exact new_keyset_newest. Qed.

(* decode_cookie never panics and has a single error.  ([enc] is quantified only for
   uniformity with the other theorems; likewise [dec] below.) *)
Theorem C26_decode_total : forall (enc : enc_t) (dec : dec_t) ks b,
  decode_cookie dec ks b = Err err_decrypt \/ exists c, decode_cookie dec ks b = Ok c.
Proof. exact decode_total. Qed.

(* encode_cookie panics exactly when [primary] does not index a key (excluded by
   KeysOk; this is the C27 defect when such a set is loaded from a file). *)
Theorem C26_encode_panic_iff : forall (enc : enc_t) (dec : dec_t) ks c nonce,
  0 <= primary ks ->
  ((exists s, encode_cookie enc ks c nonce = Panic s) <-> lenZ (keys ks) <= primary ks).
Proof.
  intros enc dec ks c nonce H0. unfold encode_cookie. rewrite nth_key_nth_error by lia.
  destruct (nth_error (keys ks) (Z.to_nat (primary ks))) as [k|] eqn:E.
  - split; [intros [s Hs]; discriminate|]. intros H.
    assert (H1 : nth_error (keys ks) (Z.to_nat (primary ks)) <> None) by congruence.
    apply nth_error_Some in H1. unfold lenZ in H. lia.
  - split; [|eauto]. intros _. apply nth_error_None in E. unfold lenZ. lia.
Qed.

(* the five AEAD hypotheses are jointly satisfiable *)
Theorem C26_hypotheses_satisfiable :
  aead_correct toy_enc toy_dec /\ aead_sound toy_enc toy_dec /\ aead_tag16 toy_enc /\
  aead_bytes toy_dec /\ aead_key_separation toy_enc toy_dec.
Proof.
  split; [exact toy_dec_enc|]. split; [|split; [|split]].
  - intros k n a c p H. apply toy_dec_inv in H. apply H.
  - intros k n a p. unfold toy_enc. rewrite lenZ_app. reflexivity.
  - intros k n a c p H. apply toy_dec_inv in H. apply H.
  - intros k k' n n' a a' p p' Hk Hk' H. apply toy_dec_inv in H. destruct H as [H _].
    unfold toy_enc in H.
    apply app_inj_len in H; [|apply (f_equal (@length Z)) in H; rewrite !app_length in H; cbn [toy_tag length] in H; lia].
    destruct H as [_ H].
    injection H as H1 H2 _. rewrite <- (be_enc_dec k Hk), <- (be_enc_dec k' Hk').
    unfold lenZ in H1. apply Nat2Z.inj in H1. rewrite H1, H2. reflexivity.
Qed.

(* non-vacuity: history 1, three rotations of a one-key set; the cookie issued
   after the first rotation decodes after one more rotation and not after two;
   a flipped id byte and a flipped length byte are rejected *)
Example C26_nonvacuous :
  let c := {| c_alg := 15; c_s2c := repeat 7 32; c_c2s := repeat 9 32 |} in
  let nonce := repeat 3 16 in
  let ks1 := rotate_many 1 (new_keyset [1]) [[2]] in
  match encode_cookie toy_enc ks1 c nonce with
  | Ok b =>
      decode_cookie toy_dec ks1 b = Ok c /\
      decode_cookie toy_dec (rotate_many 1 ks1 [[3]]) b = Ok c /\
      decode_cookie toy_dec (rotate_many 1 ks1 [[3]; [4]]) b = Err err_decrypt /\
      decode_cookie toy_dec ks1 (set_nth b 3 0) = Err err_decrypt /\
      decode_cookie toy_dec ks1 (set_nth b 5 81) = Err err_decrypt /\
      decode_cookie toy_dec (new_keyset [5]) b = Err err_decrypt /\
      length b = 104%nat
  | _ => False
  end.
Proof. vm_compute. repeat split. Qed.

Print Assumptions C26_roundtrip.
Print Assumptions C26_window.
Print Assumptions C26_window_any_primary.
Print Assumptions C26_decodes_only_genuine.
Print Assumptions C26_tamper.
Print Assumptions C26_foreign.
Print Assumptions C26_newest_key.
Print Assumptions C26_new_is_newest.
Print Assumptions C26_decode_total.
Print Assumptions C26_encode_panic_iff.
Print Assumptions C26_hypotheses_satisfiable.
