(* C03  The clock is only steered on a majority consensus of usable sources.
   The property's theorems; the lemmas they rest on are in Proofs/Select.v
   (selection) and Proofs/MsgLoop.v (controller level: who is a candidate, when
   the clock is steered, including the wrapper's timer path time_update).

   Vocabulary (Model/Select.v).  Every f64 is represented by the integer key
   of f64::total_cmp, so [<=] on keys is the order the code sorts by and
   fle/fgt are the IEEE comparisons of the two filters.
     voter cf c       c contributes a pair of bounds to the sweep: non-periodic,
                      synchronised, not (radius > maximum_source_uncertainty)
     qualifying cf c  synchronised and radius <= maximum_source_uncertainty
     wellformed       lo <= hi for every voter (a radius that is not negative)
     small            fewer than 2^61 candidates (a slice that fits in memory)
     nonan            neither the limit nor any radius is NaN (then a voter is
                      exactly a non-periodic qualifying candidate) *)
From V Require Import Model.Select Proofs.Select Model.MsgLoop Proofs.MsgLoop.

(* A non-empty selection (the only case in which update_clock touches the
   clock, see C03_steer_only_on_consensus) implies a consensus: there is a point
   t such that the voters whose closed interval contains t number at least
   minimum_agreeing_sources (and at least one) and are a strict majority of
   all voters. *)
Theorem C03_consensus : forall cf cands sel,
  wellformed cf cands -> small cands ->
  select cf cands = Ok sel -> sel <> [] ->
  exists t,
    let S := filter (agreeing cf t) cands in
    let V := filter (voter cf) cands in
    1 <= Z.of_nat (length S) /\
    min_agreeing cf <= Z.of_nat (length S) /\
    Z.of_nat (length V) < 2 * Z.of_nat (length S) /\
    (forall s, In s S -> In s V /\ c_lo s <= t <= c_hi s).
Proof.
  intros cf cands sel Hw Hsm Hsel Hne.
  exists (tlow (sweep (sort_bounds (bounds_of cf cands)))). cbv zeta. rewrite <- !countc_length.
  pose proof (consensus_at_tlow cf cands sel Hw Hsm Hsel Hne) as (H1 & Hmin & Hmaj).
  split; [exact H1|]. split; [exact Hmin|]. split; [exact Hmaj|].
  intros s Hs. apply filter_In in Hs. destruct Hs as [Hin Ha]. apply agreeing_spec in Ha.
  rewrite filter_In. tauto.
Qed.

(* Without NaNs the voters are exactly the non-periodic, synchronised
   candidates whose uncertainty is acceptable. *)
Theorem C03_voters_are_the_qualifying_nonperiodic : forall cf c,
  isnan (max_unc cf) = false -> isnan (c_radius c) = false ->
  voter cf c = negb (c_periodic c) && (c_sync c && fle (c_radius c) (max_unc cf)).
Proof. exact voter_qualifying. Qed.

(* Every returned snapshot is one of the candidates (the result is a
   sub-list of the candidate list), is synchronised and has an acceptable,
   non-NaN radius. *)
Theorem C03_members_qualify : forall cf cands sel,
  select cf cands = Ok sel ->
  (exists f, sel = filter f cands) /\
  forall s, In s sel ->
    In s cands /\ c_sync s = true /\ fle (c_radius s) (max_unc cf) = true /\
    isnan (c_radius s) = false.
Proof.
  intros cf cands sel H. destruct (select_filter cf cands sel H) as (f & -> & Hf).
  split; [exists f; reflexivity|].
  intros s Hin. apply filter_In in Hin. destruct Hin as [Hin Hr].
  apply Hf, andb_true_iff in Hr. destruct Hr as [Hs Hr].
  pose proof (fle_nonan _ _ Hr). auto.
Qed.

(* Unsynchronised or too uncertain candidates never contribute: removing
   them from the candidate list changes nothing in the result. *)
Theorem C03_unqualified_irrelevant : forall cf cands,
  nonan cf cands ->
  select cf (filter (qualifying cf) cands) = select cf cands.
Proof.
  intros cf cands Hn. apply select_ignores_unqualified; [exact Hn|]. intros c Hq. exact Hq.
Qed.

(* With well-formed intervals the sweep is balanced: `cur -= 1` is never
   executed at 0 (no usize wrap), the sweep ends at 0 and maxlow = maxhigh. *)
Theorem C03_sweep_balanced : forall cf cands,
  wellformed cf cands -> small cands ->
  let st := sweep (sort_bounds (bounds_of cf cands)) in
  maxlow st = maxhigh st /\ underflow st = false /\ cur st = 0.
Proof. exact sweep_balanced. Qed.

(* So assert_eq!(maxlow, maxhigh), the only panic site of select, never fires
   on well-formed intervals. *)
Theorem C03_select_never_panics : forall cf cands,
  wellformed cf cands -> small cands ->
  forall site, select cf cands <> Panic site.
Proof.
  intros cf cands Hw Hsm site. destruct (select_no_panic cf cands Hw Hsm) as [sel ->]. discriminate.
Qed.

(* Controller level (Model/MsgLoop.v, tied to the real controller and message loop by C37's
   harness).  Whenever update_clock reaches select (handling ev after the schedule prefix pre), the
   candidates are exactly the latest snapshots of the sources that are registered, were last
   reported usable and have delivered a snapshot: unusable sources never reach the selection.
   (The statement is C37_candidates; here it is C03's "of usable sources".) *)
Theorem C03_only_usable : forall W pre ev L,
  select_input (state_after W pre) ev = Some L ->
  forall k, In k (map snap_core L) <->
            exists j, src_view (ops_of j (pre ++ [ev])) = Some (Some k, true).
Proof. exact select_input_spec. Qed.

(* The same in the loop with its timer: expiries anywhere in the schedule do not touch the source
   map, so select sees only registered, usable sources there too (the statement is
   C37_candidates_with_timer). *)
Theorem C03_only_usable_with_timer : forall W pre ev L,
  select_input (l_ctl (tstate_after W pre)) ev = Some L ->
  forall k, In k (map snap_core L) <->
            exists j, src_view (ops_of j (msgs (pre ++ [Msg ev]))) = Some (Some k, true).
Proof. exact select_input_spec_timed. Qed.

(* A handled message makes clock calls (disable_ntp_algorithm, step_clock, set_frequency,
   error_estimate_update, status_update) only in the branch where select was reached and returned
   a non-empty selection, and reports exactly that selection as used.  (Statement about one
   handled message, any controller state; the loop with its timer is the next theorem.) *)
Theorem C03_message_calls_need_consensus : forall W c ev c' o,
  handle W c ev = (c', o) -> o_clock o <> [] ->
  exists L sel, select_input c ev = Some L /\ w_select W L = sel /\ sel <> [] /\
                o_used o = Some (map snap_id sel).
Proof. exact clock_calls_need_selection. Qed.

(* The whole loop of TimeSyncControllerWrapper::run, with its timer: for every world (selection
   function, outcome of the float comparisons of every steering decision, vote), every schedule
   [pre] of messages and timer expiries handled from the initial state, and every next event [te]:
   if handling [te] makes any clock call, then
   EITHER [te] is a source message for which select was reached and returned a non-empty
     selection, which is what is reported as used,
   OR [te] is the expiry of the wrapper's timer (time_update), the only call is ONE
     set_frequency (code 5: change_desired_frequency(0.0, 0.0) ends the slew), no sources are
     reported, the timer is not re-armed, a slew was in progress (desired_freq != 0) and is over
     afterwards, and that slew was started under a consensus: the schedule contains an earlier
     source message [ev], with no timer expiry between it and [te], for which select returned a
     non-empty selection [sel] (reported as used), whose handling called set_frequency, turned
     desired_freq from zero to non-zero and returned next_update = Some (which is what arms the
     timer).
   So the clock is touched only on a consensus, or to end a slew that a consensus started. *)
Theorem C03_steer_only_on_consensus : forall W pre te s' o,
  thandle W (tstate_after W pre) te = (s', o) -> o_clock o <> [] ->
  (exists ev L sel, te = Msg ev /\ select_input (l_ctl (tstate_after W pre)) ev = Some L /\
                    w_select W L = sel /\ sel <> [] /\ o_used o = Some (map snap_id sel))
  \/
  (te = TimeUpdate /\ o_clock o = [5] /\ o_used o = None /\ o_next o = false /\
   c_slew (l_ctl (tstate_after W pre)) = true /\ c_slew (l_ctl s') = false /\ l_timer s' = false /\
   exists pre1 ev post L sel c1 o1,
     pre = pre1 ++ Msg ev :: post /\ (forall x, In x post -> x <> TimeUpdate) /\
     select_input (l_ctl (tstate_after W pre1)) ev = Some L /\ w_select W L = sel /\ sel <> [] /\
     handle W (l_ctl (tstate_after W pre1)) ev = (c1, o1) /\
     o_used o1 = Some (map snap_id sel) /\ o_next o1 = true /\ In 5 (o_clock o1) /\
     c_slew (l_ctl (tstate_after W pre1)) = false /\ c_slew c1 = true).
Proof.
  intros W pre te s' o Hh Hc.
  destruct (thandle_calls W _ te s' o Hh Hc) as [H|(-> & Ht & _)]; [left; exact H|right].
  cbn [thandle] in Hh. rewrite Ht in Hh. injection Hh as <- <-.
  destruct (timer_enabled W pre Ht) as (Hslew & pre1 & ev & post & Hpre & Hno & Harm).
  split; [reflexivity|]. split; [reflexivity|]. split; [reflexivity|]. split; [reflexivity|].
  split; [exact Hslew|]. split; [reflexivity|]. split; [reflexivity|].
  destruct (handle W (l_ctl (tstate_after W pre1)) ev) as [c1 o1] eqn:Hhe.
  destruct (next_update_needs_selection W _ _ _ _ Hhe Harm) as (L & sel & H1 & H2 & H3 & H4 & H5 & H6 & H7).
  exists pre1, ev, post, L, sel, c1, o1. repeat (split; [assumption|]). assumption.
Qed.

(* one step of the loop from ANY loop state (reachable or not): clock calls need a consensus
   message or an expiry of an enabled timer, which makes exactly one set_frequency call and
   leaves the timer disabled; a timer expiry with the timer disabled makes no clock call *)
Theorem C03_loop_step_calls : forall W s te s' o,
  thandle W s te = (s', o) -> o_clock o <> [] ->
  (exists ev L sel, te = Msg ev /\ select_input (l_ctl s) ev = Some L /\ w_select W L = sel /\ sel <> [] /\
                    o_used o = Some (map snap_id sel))
  \/ (te = TimeUpdate /\ l_timer s = true /\ o_clock o = [5] /\ o_used o = None /\ l_timer s' = false).
Proof. exact thandle_calls. Qed.

(* non-vacuity: three agreeing voters out of four with minimum 3 are selected,
   a 2-2 tie is not, and the sweep of the first case reaches 3 *)
Example C03_nonvacuous :
  let c i lo hi := mkCand i false true 10 lo hi in
  let cf := mkCfg 3 100 in
  select cf [c 1 0 20; c 2 10 30; c 3 15 40; c 4 90 95] = Ok [c 1 0 20; c 2 10 30; c 3 15 40]
  /\ select (mkCfg 1 100) [c 1 0 20; c 2 10 30; c 3 50 60; c 4 55 70] = Ok []
  /\ wellformed cf [c 1 0 20; c 2 10 30; c 3 15 40; c 4 90 95]
  /\ maxlow (sweep (sort_bounds (bounds_of cf [c 1 0 20; c 2 10 30; c 3 15 40; c 4 90 95]))) = 3.
Proof.
  cbv zeta. split; [vm_compute; reflexivity|]. split; [vm_compute; reflexivity|]. split; [|vm_compute; reflexivity].
  intros x Hin _. cbn [In] in Hin.
  repeat (destruct Hin as [Hx | Hin]; [subst x; cbn [c_lo c_hi]; lia|]). destruct Hin.
Qed.

(* non-vacuity of the timer disjunct: one usable source; its first measurement reaches a
   consensus whose steering decision (oracle code 2) starts a slew: disable_ntp_algorithm,
   set_frequency, error estimate, status; next_update = Some arms the timer.  The first timer
   expiry ends the slew with one set_frequency, a second expiry does nothing; the next consensus
   (oracle code 1: frequency correction) calls set_frequency without arming, and the expiry after
   it does nothing. *)
Example C03_nonvacuous_timer :
  let s n := mkSnap n 100 100 0 (mkCand 1 false true 10 0 20) in
  let W := tape_world (mkCfg 1 100) [2; 1] in
  let pre := [Msg (1, None); Msg (1, Some (SetUsable true)); Msg (1, Some (Measure (s 7)))] in
  map (fun o => (o_clock o, o_used o, o_next o))
      (snd (trun_from W l_init (pre ++ [TimeUpdate; TimeUpdate; Msg (1, Some (Measure (s 8))); TimeUpdate])))
  = [([], None, false); ([], None, false); ([1; 5; 2; 30], Some [1], true); ([5], None, false);
     ([], None, false); ([5; 2; 30], Some [1], false); ([], None, false)]
  /\ (l_timer (tstate_after W pre), c_slew (l_ctl (tstate_after W pre))) = (true, true)
  /\ (l_timer (tstate_after W (pre ++ [TimeUpdate])), c_slew (l_ctl (tstate_after W (pre ++ [TimeUpdate])))) = (false, false).
Proof. vm_compute. repeat split; reflexivity. Qed.

Print Assumptions C03_consensus.
Print Assumptions C03_voters_are_the_qualifying_nonperiodic.
Print Assumptions C03_members_qualify.
Print Assumptions C03_unqualified_irrelevant.
Print Assumptions C03_sweep_balanced.
Print Assumptions C03_select_never_panics.
Print Assumptions C03_only_usable.
Print Assumptions C03_only_usable_with_timer.
Print Assumptions C03_message_calls_need_consensus.
Print Assumptions C03_steer_only_on_consensus.
Print Assumptions C03_loop_step_calls.
