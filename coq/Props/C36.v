(* C36  Source (re)spawning is paced and follows removal reasons.
   Property theorems; the lemmas they rest on are in Proofs/Spawner.v.

   Model: Model/Spawner.v.  [task P fuel t0 s evs tc ties] is the log of one run of spawner_task
   (spawn/mod.rs) started at time t0 (milliseconds) around ANY spawner P (a state machine with
   is_complete, try_spawn returning a duration >= 0 and Ok/Err, the two handlers) in state s,
   for ANY schedule: events [evs] with arbitrary arrival times, the channel closed at [tc], any
   resolution [ties] of the races between a message and the timeout expiring at the same
   instant, any number [fuel] of loop iterations.  W = NETWORK_WAIT_PERIOD = 1000 ms.
   Log entries: Try t f info (try_spawn called at t, returned at f), Handled t e, IdleAt t (the
   timeout fired), Closed t.  Assumed, not verified: the handlers take no time (none of the
   repository's handlers contains a pending await) and tokio's timer semantics (a timeout fires
   exactly at its deadline on the clock the loop reads). *)
From V Require Import Model.Spawner Proofs.Spawner.

(* at most one attempt per wait period: any two attempts of a run start at least W apart; more
   precisely the later one starts at least W after the earlier one RETURNED *)
Theorem C36_pace : forall S (P : spawner S) fuel t0 s evs tc ties pre t1 f1 i1 mid t2 f2 i2 post,
  task P fuel t0 s evs tc ties = pre ++ Try t1 f1 i1 :: mid ++ Try t2 f2 i2 :: post ->
  f1 + W <= t2 /\ t1 + W <= t2.
Proof.
  intros S P fuel t0 s evs tc ties pre t1 f1 i1 mid t2 f2 i2 post H.
  pose proof (keeps_paced _ _ _ _ _ _ (task_keeps S P fuel t0 s evs tc ties)) as Hp.
  destruct (paced_pairs _ _ _ _ _ _ _ _ _ _ _ Hp H). lia.
Qed.

(* while incomplete, keeps attempting at that pace: for EVERY spawner (also one that alternates
   between complete and incomplete through try_spawn and the handlers), every schedule, every tie
   resolution, every fuel, the whole log satisfies [keeps] (Model/Spawner.v).  [keeps] follows the
   log together with the spawner's state (try_spawn / the handlers applied as the log says), the
   instant l at which the previous attempt RETURNED and the instant cur of the previous entry, and
   demands at every point of the run (start of the task, after every attempt, after every handled
   event, after every timeout):
     - spawner incomplete and an attempt due (no attempt made yet, or l + W <= cur): the next
       entry is the attempt, at cur itself;
     - an attempt not due (cur < l + W): the next entry (an event handled, the channel found closed,
       the timeout) is at an instant <= l + W, a timeout exactly at l + W, and it is not an attempt
       (so when that entry leaves the spawner incomplete at l + W the first case applies: the
       attempt starts at l + W; events arriving before l + W are handled in between);
     - an attempt is made only while the spawner is incomplete and due, it returns no earlier than
       it starts, and its result is the one try_spawn gave;
     - the log never simply stops: it ends with Closed (channel closed), with an attempt that
       returned Err, or with the cut-off of the model.
   Hence the loop never stops trying while the spawner is incomplete, until the channel closes or
   try_spawn fails. *)
Theorem C36_keeps_trying : forall S (P : spawner S) fuel t0 s evs tc ties,
  keeps P s None t0 (task P fuel t0 s evs tc ties).
Proof. exact task_keeps. Qed.

(* the same, read off at an arbitrary point of a run: if after the prefix [pre] (ghost values by
   [replay]: spawner state s', previous return lastf, instant cur) the spawner is incomplete, the
   next entry x is the attempt at cur when due, and otherwise something at an instant <= l + W
   (a timeout: exactly l + W); the log does not end there *)
Theorem C36_keeps_trying_next : forall S (P : spawner S) fuel t0 s evs tc ties pre x rest s' lastf cur,
  task P fuel t0 s evs tc ties = pre ++ x :: rest ->
  replay P s None t0 pre = (s', lastf, cur) -> sp_complete P s' = false ->
  match x with
  | Try t _ _ => t = cur /\ due lastf cur = true
  | Handled t _ | Closed t => exists l, lastf = Some l /\ cur < l + W /\ cur <= t <= l + W
  | IdleAt t => exists l, lastf = Some l /\ cur < l + W /\ t = l + W
  | OutOfFuel => rest = []
  end.
Proof.
  intros S P fuel t0 s evs tc ties pre x rest s' lastf cur Hlog Hr Hc.
  pose proof (task_keeps S P fuel t0 s evs tc ties) as Hk. rewrite Hlog in Hk.
  apply (keeps_suffix S P pre s None t0 (x :: rest) s' lastf cur ltac:(discriminate)) in Hk; [| exact Hr].
  destruct x as [t f i | t e | t | t |]; cbn [keeps] in Hk.
  - (* Try *) tauto.
  - (* Handled: an attempt is not due, so the deadline bounds t *)
    destruct Hk as (Hnd & Hle & Hby & _). destruct (due_false _ _ (Hnd Hc)) as (l & -> & Hlt).
    exists l. cbn in Hby. repeat split; auto.
  - (* IdleAt *) destruct Hk as (Hl & _). destruct lastf as [l |]; [| contradiction]. exists l. tauto.
  - (* Closed: as Handled *)
    destruct Hk as (Hnd & Hle & Hby & _). destruct (due_false _ _ (Hnd Hc)) as (l & -> & Hlt).
    exists l. cbn in Hby. repeat split; auto.
  - (* OutOfFuel *) exact Hk.
Qed.

(* the instant of the next attempt: if from some point of the run (after [pre]) up to the next
   attempt the spawner is incomplete at every loop top ([waiting]: before and after every entry of
   [mid], which contains no attempt), that attempt starts exactly at
   [deadline] = max(that point, previous return + W) (= that point if no attempt was made yet),
   and nothing the loop does in between is later *)
Theorem C36_next_attempt_instant : forall S (P : spawner S) fuel t0 s evs tc ties pre mid t f i post s' lastf cur,
  task P fuel t0 s evs tc ties = pre ++ mid ++ Try t f i :: post ->
  replay P s None t0 pre = (s', lastf, cur) -> waiting P s' mid ->
  t = deadline lastf cur /\ Forall (not_after t) mid.
Proof.
  intros S P fuel t0 s evs tc ties pre mid t f i post s' lastf cur Hlog Hr Hw.
  pose proof (task_keeps S P fuel t0 s evs tc ties) as Hk. rewrite Hlog in Hk.
  apply (keeps_suffix S P pre s None t0 _ s' lastf cur) in Hk; [| destruct mid; discriminate | exact Hr].
  eapply keeps_waiting_try; eauto.
Qed.

(* special case: a spawner that is never complete is tried exactly
   periodically: at the start, then exactly W after the previous attempt returned; everything else
   the loop does in between happens no later than that deadline, a timeout is followed at once by
   the attempt, and the log ends only with the channel closed, try_spawn failing, or the cut-off
   of the model ([periodic], Model/Spawner.v) *)
Theorem C36_keeps_trying_never_complete : forall S (P : spawner S) fuel t0 s evs tc ties,
  (forall x, sp_complete P x = false) -> periodic t0 None (task P fuel t0 s evs tc ties).
Proof. intros S P fuel t0 s evs tc ties HN. eapply keeps_periodic; [exact HN | apply task_keeps | reflexivity]. Qed.

(* the per-iteration facts, for every spawner and every state at the top of the loop: an
   incomplete spawner is tried at once if a ticket is held or W has passed since the last attempt
   returned; otherwise no attempt is made *)
Theorem C36_attempt_when_due : forall S (P : spawner S) (st : lstate S),
  sp_complete P (sp st) = false -> (has_ticket st = true \/ last st + W <= now st) ->
  exists f i st1 failed, attempt_step P st = ([Try (now st) f i], st1, failed)
                         /\ has_ticket st1 = false /\ last st1 = f /\ now st1 = f /\ now st <= f.
Proof.
  intros S P st Hc Hd. unfold attempt_step. rewrite Hc. cbn [negb]. rewrite andb_true_r.
  assert (Hh : has_ticket st || (W <=? now st - last st) = true).
  { apply orb_true_iff. destruct Hd as [Hd | Hd]; [left; auto | right; apply Z.leb_le; lia]. }
  rewrite Hh. do 4 eexists. split; [reflexivity |]. cbn. repeat split; lia.
Qed.

(* ... and none is made when the spawner is complete, or when no ticket is held and W has not yet
   passed since the last attempt returned *)
Theorem C36_no_attempt_otherwise : forall S (P : spawner S) (st : lstate S),
  sp_complete P (sp st) = true \/ (has_ticket st = false /\ now st < last st + W) ->
  fst (fst (attempt_step P st)) = [].
Proof.
  intros S P st H. unfold attempt_step. destruct H as [Hcomplete | [Hnoticket Hearly]].
  - rewrite Hcomplete. cbn [negb]. rewrite andb_false_r. reflexivity.
  - rewrite Hnoticket. cbn [orb]. assert (Hl : (W <=? now st - last st) = false) by (apply Z.leb_gt; lia).
    rewrite Hl. reflexivity.
Qed.

(* and the wait without a ticket never lasts beyond last + W; a timeout is exactly there *)
Theorem C36_wait_bounded : forall l n evs tc ties,
  l <= n -> n <= l + W ->
  let w := wait_step false l n evs tc ties in
  wait_time w <= l + W /\ (forall t ties', w = WIdle t ties' -> t = l + W).
Proof.
  intros l n evs tc ties Hl Hn w. assert (Hd : n + Z.max 0 (W - (n - l)) = l + W) by lia.
  destruct (wait_step_cases false l n evs tc ties) as [(t & ties' & _ & Ht & E) | (_ & ties' & E)];
    fold w in E; rewrite Hd in *; rewrite E.
  - rewrite wait_time_delivered. split; [auto |]. destruct evs as [| [a e] r]; discriminate.
  - split; [cbn; lia |]. intros t0 ties0 [= <- _]. reflexivity.
Qed.

(* The plain single-server spawner (standard.rs) inside the loop, for every DNS oracle and every
   schedule: an attempt is only ever made before the first source exists or after a removal for a
   reason other than Demobilized since the last source was spawned ([std_ok]): a demobilised
   source is never respawned. *)
Theorem C36_no_respawn_demobilized : forall dns fuel t0 evs tc ties,
  std_ok true (task (Std dns) fuel t0 std0 evs tc ties).
Proof. intros. eapply keeps_std_ok; [apply task_keeps | discriminate]. Qed.

(* ... and after an Unreachable removal the next source is spawned on an address resolved anew
   (fresh = 1), while otherwise the address resolved before is used again without a lookup
   ([reresolves]). *)
Theorem C36_reresolve_unreachable : forall dns fuel t0 evs tc ties,
  reresolves None (task (Std dns) fuel t0 std0 evs tc ties).
Proof. intros. apply (keeps_reresolves dns _ std0 None t0), task_keeps. Qed.

(* Observation, not part of the property (it speaks of the plain spawner): the NTS single-server
   spawner (nts.rs) clears has_spawned on EVERY removal, so it does respawn (with a new key
   exchange) a source that was demobilised. *)
Theorem C36_nts_respawns_after_demobilized_observation : forall ke s,
  sp_complete (Nts ke) (sp_removed (Nts ke) s RDemobilized) = false.
Proof. reflexivity. Qed.

(* non-vacuity: a mock spawner failing twice (200 ms each) then succeeding, a burst of events
   before the first deadline, a removal that makes it incomplete again *)
Example C36_nonvacuous :
  task Mock 50 0 (mkmock false [(200, 0); (200, 0); (0, 1)])
       [(250, EvRegistered); (300, EvIdle); (900, EvRegistered); (5000, EvRemoved RNetworkIssue)] 7000 []
  = [Try 0 200 (Some [0]); Handled 250 EvRegistered; Handled 300 EvIdle; Handled 900 EvRegistered;
     IdleAt 1200; Try 1200 1400 (Some [0]); IdleAt 2400; Try 2400 2400 (Some [1]); IdleAt 3400;
     Handled 5000 (EvRemoved RNetworkIssue); Try 5000 5000 (Some [1]); IdleAt 6000; Closed 7000].
Proof. vm_compute. reflexivity. Qed.

(* non-vacuity of C36_keeps_trying_next / C36_next_attempt_instant on the run above (an alternating
   spawner): after the prefix ending with the removal at 5000 the mock is incomplete, an attempt is
   due (2400 + W <= 5000) and is the next entry; after the first attempt (returned at 200) the
   three events are handled before the deadline 1200 and the attempt starts exactly there *)
Example C36_nonvacuous_alternating :
  let pre := [Try 0 200 (Some [0]); Handled 250 EvRegistered; Handled 300 EvIdle; Handled 900 EvRegistered;
              IdleAt 1200; Try 1200 1400 (Some [0]); IdleAt 2400; Try 2400 2400 (Some [1]); IdleAt 3400;
              Handled 5000 (EvRemoved RNetworkIssue)] in
  let s0 := mkmock false [(200, 0); (200, 0); (0, 1)] in
  replay Mock s0 None 0 pre = (mkmock false [], Some 2400, 5000)
  /\ sp_complete Mock (mkmock false []) = false
  /\ sp_complete Mock (fst (fst (replay Mock s0 None 0 (firstn 9 pre)))) = true
  /\ replay Mock s0 None 0 (firstn 1 pre) = (mkmock false [(200, 0); (0, 1)], Some 200, 200)
  /\ waiting Mock (mkmock false [(200, 0); (0, 1)])
       [Handled 250 EvRegistered; Handled 300 EvIdle; Handled 900 EvRegistered; IdleAt 1200]
  /\ deadline (Some 200) 200 = 1200 /\ deadline (Some 2400) 5000 = 5000.
Proof. vm_compute. repeat split; reflexivity. Qed.

(* standard spawner with the test resolver [1;2;3]: Demobilized does not respawn, NetworkIssue
   respawns on the cached address, Unreachable resolves again *)
Example C36_nonvacuous_std :
  task (Std (rot_dns [1; 2; 3])) 50 0 std0
       [(500, EvRemoved RDemobilized); (2500, EvRemoved RNetworkIssue); (2600, EvRemoved RUnreachable)] 9000 []
  = [Try 0 0 (Some [3; 1]); Handled 500 (EvRemoved RDemobilized); IdleAt 1000;
     Handled 2500 (EvRemoved RNetworkIssue); Try 2500 2500 (Some [3; 0]);
     Handled 2600 (EvRemoved RUnreachable); IdleAt 3500; Try 3500 3500 (Some [2; 1]); IdleAt 4500; Closed 9000].
Proof. vm_compute. reflexivity. Qed.

(* the two resolutions of a tie: an event arriving exactly when the timeout expires *)
Example C36_nonvacuous_tie :
  task Mock 50 0 (mkmock false [(0, 0); (0, 1)]) [(1000, EvRegistered)] 3000 [true]
  = [Try 0 0 (Some [0]); IdleAt 1000; Try 1000 1000 (Some [1]); Handled 1000 EvRegistered; IdleAt 2000; Closed 3000]
  /\ task Mock 50 0 (mkmock false [(0, 0); (0, 1)]) [(1000, EvRegistered)] 3000 [false]
  = [Try 0 0 (Some [0]); Handled 1000 EvRegistered; Try 1000 1000 (Some [1]); IdleAt 2000; Closed 3000].
Proof. vm_compute. split; reflexivity. Qed.

Print Assumptions C36_pace.
Print Assumptions C36_keeps_trying.
Print Assumptions C36_keeps_trying_next.
Print Assumptions C36_next_attempt_instant.
Print Assumptions C36_keeps_trying_never_complete.
Print Assumptions C36_attempt_when_due.
Print Assumptions C36_no_attempt_otherwise.
Print Assumptions C36_wait_bounded.
Print Assumptions C36_no_respawn_demobilized.
Print Assumptions C36_reresolve_unreachable.
Print Assumptions C36_nts_respawns_after_demobilized_observation.
