(* C37  Only registered, usable sources influence the clock.
   The property's theorems; the lemmas they rest on are in Proofs/MsgLoop.v.

   Model/MsgLoop.v: the controller map id -> (option snapshot, usable), the handlers of the
   message loop, and schedules.  A schedule is a list of events (id, None) [the system calls
   add_source(id)] and (id, Some op) [the message of source task id: Measure s | SetUsable b |
   DropSrc], handled one at a time in channel (FIFO) order.  [interleaving scripts tr] says that
   the projection of tr on every id is that source's task (add_source, then its script, order
   preserved): the set of all such tr is the set of all interleavings of the source tasks.
   [src_view os] folds ONE source's own events: None = not registered, Some (last snapshot,
   last usability report).  Theorems hold for every world W (any selection / steering / vote
   function) and every schedule, interleaving or not; only C37_per_source_order asks for an
   interleaving of well-formed scripts.  The wrapper's timer (time_update) is an extra event kind
   of the loop model [thandle]; it never changes the source map
   (C37_timer_leaves_sources_alone, and from it the two theorems named _with_timer). *)
From V Require Import Model.Select Model.MsgLoop Proofs.MsgLoop.

(* Whatever the interleaving, what the controller holds for source j is determined by the
   events of source j alone, taken in the order j produced them (no other source, and no
   ordering between sources, can change it). *)
Theorem C37_state_is_per_source : forall W j tr,
  view_of j (state_after W tr) = src_view (ops_of j tr).
Proof. exact view_state_after. Qed.

(* Whenever the selection is computed (handling ev after the schedule prefix pre), the candidate
   list it gets consists exactly of the latest snapshots of the sources that are currently
   registered, were last reported usable, and have delivered a snapshot.  (Read for C03, where
   it says that unusable sources never reach the selection, this is C03_only_usable.) *)
Theorem C37_candidates : forall W pre ev L,
  select_input (state_after W pre) ev = Some L ->
  forall k, In k (map snap_core L) <->
            exists j, src_view (ops_of j (pre ++ [ev])) = Some (Some k, true).
Proof. exact select_input_spec. Qed.

(* The sources reported as used for a clock update are among those candidates (for any selection
   function that returns some of its arguments, as select does: C03_members_qualify). *)
Theorem C37_used_sources_are_candidates : forall W pre ev L c' o u,
  (forall l s, In s (w_select W l) -> In s l) ->
  select_input (state_after W pre) ev = Some L ->
  handle W (state_after W pre) ev = (c', o) -> o_used o = Some u ->
  forall i, In i u -> exists s, In s L /\ snap_id s = i.
Proof.
  intros W pre ev L c' o u Hsub Hsi Hh Hu i Hin.
  destruct (handle_cases W _ ev c' o Hh) as [[_ ->]|(L' & sel & Hsi' & Hsel & _ & _ & ->)]; [discriminate|].
  rewrite Hsi in Hsi'. injection Hsi' as <-. injection Hu as <-.
  apply in_map_iff in Hin. destruct Hin as (y & Hy & Hin).
  exists y. split; [|exact Hy]. apply Hsub. rewrite Hsel. exact Hin.
Qed.

(* A message for a source that is not registered changes nothing and emits nothing ... *)
Theorem C37_ignored_when_unregistered : forall W tr i o,
  src_view (ops_of i tr) = None ->
  handle W (state_after W tr) (i, Some o) = (state_after W tr, out0).
Proof. exact ignored_when_unregistered. Qed.

(* ... in particular anything arriving for a source after its removal (ids are never added twice). *)
Theorem C37_after_removal : forall W tr1 tr2 i o,
  (forall ev, In ev tr2 -> ev <> (i, None)) ->
  handle W (state_after W (tr1 ++ (i, Some DropSrc) :: tr2)) (i, Some o)
  = (state_after W (tr1 ++ (i, Some DropSrc) :: tr2), out0).
Proof.
  intros W tr1 tr2 i o Hno. apply ignored_when_unregistered, unregistered_after_removal, Hno.
Qed.

(* In every interleaving of the source tasks, the snapshots the controller stores for source j
   are exactly the measurements of j's script, in the order j produced them. *)
Theorem C37_per_source_order : forall W scripts tr j sc,
  interleaving scripts tr -> scripts j = Some sc -> script_ok sc ->
  map snd (filter (fun p => fst p =? j) (stored_log W ctl_init tr)) = measures sc.
Proof.
  intros W scripts tr j sc Hint Hs Hok. rewrite stored_log_proj, (Hint j), Hs.
  unfold task_events. cbn [accepted src_step app]. apply accepted_script. exact Hok.
Qed.

(* Timer expiries (TimeUpdate events of the wrapper's loop, Model/MsgLoop.v [thandle]) are invisible
   to the source map: after any schedule of messages and timer expiries the map is the one after
   the schedule's messages alone, so every theorem above reads on [msgs tr] ... *)
Theorem C37_timer_leaves_sources_alone : forall W tr,
  c_map (l_ctl (tstate_after W tr)) = c_map (state_after W (msgs tr)).
Proof. exact tstate_map. Qed.

(* ... e.g. what the controller holds for source j, with timer expiries anywhere in the schedule,
   is determined by j's own messages ... *)
Theorem C37_state_is_per_source_with_timer : forall W j tr,
  view_of j (l_ctl (tstate_after W tr)) = src_view (ops_of j (msgs tr)).
Proof. intros W j tr. rewrite view_of_m, tstate_map, <- view_of_m. apply view_state_after. Qed.

(* ... and whenever the selection is computed in the loop with its timer, its candidates are the
   latest snapshots of the registered, usable sources (C37_candidates with [thandle]'s state;
   read for C03 this is C03_only_usable_with_timer). *)
Theorem C37_candidates_with_timer : forall W pre ev L,
  select_input (l_ctl (tstate_after W pre)) ev = Some L ->
  forall k, In k (map snap_core L) <->
            exists j, src_view (ops_of j (msgs (pre ++ [Msg ev]))) = Some (Some k, true).
Proof. exact select_input_spec_timed. Qed.

(* non-vacuity: two sources, an interleaving of their scripts, both usable with snapshots at the
   third-last event; after 1 is dropped a late message for 1 is ignored *)
Example C37_nonvacuous :
  let s i n := mkSnap n 100 100 0 (mkCand i false true 10 0 20) in
  let scripts i := if i =? 1 then Some [SetUsable true; Measure (s 1 7); DropSrc]
                   else if i =? 2 then Some [Measure (s 2 8); SetUsable true; Measure (s 2 9)] else None in
  let tr := [(1, None); (2, None); (2, Some (Measure (s 2 8))); (1, Some (SetUsable true));
             (2, Some (SetUsable true)); (1, Some (Measure (s 1 7))); (2, Some (Measure (s 2 9)));
             (1, Some DropSrc)] in
  let W := real_world (mkCfg 1 100) in
  (forall i, ops_of i tr = match scripts i with Some sc => task_events sc | None => [] end)
  /\ option_map (map snap_serial) (select_input (state_after W (firstn 6 tr)) (2, Some (Measure (s 2 9)))) = Some [9; 7]
  /\ snd (handle W (state_after W (firstn 6 tr)) (2, Some (Measure (s 2 9)))) = mkOut [2; 30] (Some [2; 1]) false
  /\ stored_log W ctl_init tr = [(2, 8); (1, 7); (2, 9)]
  /\ handle W (state_after W tr) (1, Some (Measure (s 1 10))) = (state_after W tr, out0).
Proof.
  intros s scripts tr W. split; [|vm_compute; repeat split].
  (* i is split just far enough (1 = xH, 2 = xO xH) for every comparison with 1 and 2 to compute;
     filtering with the comparisons left open would double the term at each of the eight events *)
  intros i. destruct i as [|[p|[p|p|]|]|p]; reflexivity.
Qed.

Print Assumptions C37_state_is_per_source.
Print Assumptions C37_candidates.
Print Assumptions C37_used_sources_are_candidates.
Print Assumptions C37_ignored_when_unregistered.
Print Assumptions C37_after_removal.
Print Assumptions C37_per_source_order.
Print Assumptions C37_timer_leaves_sources_alone.
Print Assumptions C37_state_is_per_source_with_timer.
Print Assumptions C37_candidates_with_timer.
