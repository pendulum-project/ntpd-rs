(* C44  CSPTP clients survive any server traffic and only use matching answers.
   Property theorems; the lemmas they rest on are in Proofs/CsptpSource.v.  The model is
   Model/CsptpSource.v over the byte-level parser models Model/CsptpMsg.v and Model/PtpWire.v:
   every datagram is a byte string, parsed by the model of CsptpMessage::deserialize. *)
From V Require Import Model.CsptpSource Proofs.Common Proofs.CsptpSource.

(* No sequence of datagrams crashes the daemon: for every configuration (domain, whether this
   source is the active one, current CSPTP state, next sequence id) and every script of polls
   -- per poll the result of send_event and any list of receive results (errors, datagrams of
   arbitrary bytes, with or without timestamp) before the response timeout -- the poll loop of
   CsptpSource::run completes every poll without reaching a panic site. *)
Theorem C44_total : forall polls domain active cs seq,
  exists outs, run_polls domain active cs seq polls = Ok outs.
Proof. exact run_polls_ok. Qed.

(* A raw measurement comes only from a timestamped datagram of this socket that parses as a
   CSPTP Sync with the request's domain and sequence id and a valid response TLV, from which the
   request reception time, the request correction, leap flags and status are taken; for a
   two-step answer additionally from a follow-up of this socket with the same domain and
   sequence id, which supplies the send time (corrections added with saturation); for a
   one-step answer the send time is the Sync's origin timestamp. *)
Theorem C44_matching_only : forall domain reqid send_ts events r,
  collect domain reqid send_ts WaitingForResponse events = Ok (Some r) ->
  justified domain reqid send_ts events r.
Proof. intros. eapply collect_sound; eauto; [apply incl_refl|exact I]. Qed.

(* At most one measurement per request, made from that request's own traffic: the k-th poll
   yields at most one measurement (po_meas is an option; the harness checks that it reaches the
   controller as exactly one pair of handle_measurement calls), and when it does, it is computed
   from the raw measurement collected on the k-th poll's socket with the k-th sequence id (ids
   count up from the first one and wrap at 2^16), both corrected times being PTP timestamps. *)
Theorem C44_once_per_request : forall polls domain active cs seq outs,
  run_polls domain active cs seq polls = Ok outs ->
  length outs = length polls /\
  forall k p o, nth_error polls k = Some p -> nth_error outs k = Some o ->
    outcome_of domain (seq_after seq k) p o.
Proof.
  induction polls as [|p rest IH]; intros domain active cs seq outs H; cbn in H.
  - inversion H; subst. split; [reflexivity|]. intros k p o Hp. destruct k; discriminate.
  - destruct (poll_once domain active cs seq p) as [o| |] eqn:Eo; cbn in H; try discriminate.
    destruct (run_polls domain active (po_state o) (wrap 16 (seq + 1)) rest) as [os| |] eqn:Er; cbn in H; try discriminate.
    inversion H; subst; clear H. destruct (IH _ _ _ _ _ Er) as [L F]. split; [cbn; congruence|].
    intros k p' o' Hp Ho. destruct k as [|k]; cbn in Hp, Ho.
    + inversion Hp; inversion Ho; subst. cbn. eapply poll_once_outcome; eauto.
    + cbn. eapply F; eauto.
Qed.

(* add_correction (as on branch fix-c44) answers only with PTP timestamps (48-bit seconds, nanoseconds
   below 10^9), for every timestamp and correction whatsoever *)
Theorem C44_correction_in_range : forall ts c t,
  add_correction ts c = Some t -> 0 <= ts_secs t < 2 ^ 48 /\ 0 <= ts_nanos t < 1000000000.
Proof.
  intros ts c t H. unfold add_correction in H. cbv zeta in H.
  set (secs := wrap 64 _) in H. set (nanos := _ mod 1000000000) in H.
  assert (0 <= secs < 2 ^ 64) as Hs by exact (Z.mod_pos_bound _ (2 ^ 64) eq_refl).
  assert (0 <= nanos < 1000000000) as Hn by exact (Z.mod_pos_bound _ 1000000000 eq_refl).
  clearbody secs nanos. destr_if H; [discriminate|]. injection H as <-. cbn [ts_secs ts_nanos]. lia.
Qed.

(* non-vacuity: a one-step answer is measured; a two-step answer needs its follow-up; an
   answer whose corrected send time is not a PTP timestamp (follow-up seconds 2^48-1, +2 s
   correction) is collected and then dropped by add_correction *)
Definition ex_resp (two : bool) : bytes :=
  ser_header (with_flags (csptp_header 128 0) false false false false false two) 0 66
  ++ ts_ser (mkTs 60 1)
  ++ tlv_ser (Gen.ConstCsptp.TLV_CSPTP_RESPONSE, ts_ser (mkTs 50 7) ++ be 8 0).
Definition ex_fu (secs corr : Z) : bytes :=
  ser_header (mkHeader 768 2 1 128 false true true false false false false false false false false false
                       corr zero_pid 0 127) 8 44 ++ ts_ser (mkTs secs 0).
Example C44_nonvacuous :
  (exists r, collect 128 0 (mkTs 1000 0) WaitingForResponse [Datagram (ex_resp false) (Some (mkTs 70 0))] = Ok (Some r)
             /\ rm_resp_send r = mkTs 60 1)
  /\ collect 128 0 (mkTs 1000 0) WaitingForResponse [Datagram (ex_resp true) (Some (mkTs 70 0))] = Ok None
  /\ (exists r, collect 128 0 (mkTs 1000 0) WaitingForResponse
                  [Datagram (ex_resp true) (Some (mkTs 70 0)); Datagram (ex_fu (2 ^ 48 - 1) (2000000000 * 65536)) None] = Ok (Some r)
                /\ rm_resp_send r = mkTs (2 ^ 48 - 1) 0
                /\ add_correction (rm_resp_send r) (rm_resp_corr r) = None)
  /\ collect 128 1 (mkTs 1000 0) WaitingForResponse [Datagram (ex_resp false) (Some (mkTs 70 0))] = Ok None.
Proof.
  split; [eexists; split; [vm_compute; reflexivity|reflexivity]|].
  split; [vm_compute; reflexivity|].
  split; [eexists; split; [vm_compute; reflexivity|split; vm_compute; reflexivity]|].
  vm_compute; reflexivity.
Qed.

Print Assumptions C44_total.
Print Assumptions C44_matching_only.
Print Assumptions C44_once_per_request.
Print Assumptions C44_correction_in_range.
