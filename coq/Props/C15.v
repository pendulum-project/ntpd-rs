(* C15  Server access policy is enforced in order.
   The lemmas about the decision model are in Proofs/Server.v.

   The theorems are about the decision model [handle] of Server::handle (Model/Server.v), over the
   summary of the parsed datagram [request] (outcome class of the decoder incl. authentication
   failure, version, mode, cookie present), the two list-membership bits, the rate-limit cache, and
   every configuration (list actions, require-nts, accepted versions, cutoff).  Byte-level decoding
   (C23/C24), list membership (C31) and answer construction (C16-C19) are inputs of this model.
   [o_out r] is what is sent: nothing, a time answer, a DENY kiss, or an NTS NAK.

   What is modelled is the handler as of the commit "fix: never answer non-client packets whose NTS field
   fails to authenticate" (branch fix-c15-nonclient-nak): a datagram whose NTS field fails to authenticate
   is only answered when its mode is `client`.  Without that commit such non-client datagrams are answered
   with a NAK (or DENY), and C15_unanswered is false of the code. *)
From V Require Import Model.Server Proofs.Server.

(* The deny list is tested first: for a client on the deny list the outcome does not depend on the
   allow list at all, ... *)
Theorem C15_deny_first : forall h cfg c e rq b,
  e_in_deny e = true -> handle h cfg c (with_allow e b) rq = handle h cfg c e rq.
Proof.
  intros h cfg c e rq b H. unfold handle, intended_action, with_allow. cbn [e_in_deny e_in_allow]. rewrite H. reflexivity.
Qed.

(* ... it never receives time nor a NAK: with action `ignore` nothing is sent (registered as
   Policy/Ignore), with action `deny` at most a DENY kiss (registered as Policy/Deny); the
   rate-limit cache is not touched. *)
Theorem C15_denied : forall h cfg c e rq r,
  e_in_deny e = true -> handle h cfg c e rq = Ok r ->
  o_cache r = c /\
  match c_deny_action cfg with
  | FIgnore => o_out r = OIgnore /\ o_regs r = [(r_fbv rq, false, Policy, RIgnore)]
  | FDeny => o_out r = OIgnore \/ (o_out r = ORespond ADenyKiss /\ exists v n, o_regs r = [(v, n, Policy, RDeny)])
  end.
Proof.
  intros h cfg c e rq r Hd H.
  destruct (intended_action_spec h cfg c e) as [(_ & E)|[(N & _)|(N & _)]]; [|congruence|congruence].
  exact (listed h cfg c e rq c (c_deny_action cfg) r E H).
Qed.

(* The same for a client that is not on the deny list and not on the allow list, with the allow
   list's action. *)
Theorem C15_not_allowed : forall h cfg c e rq r,
  e_in_deny e = false -> e_in_allow e = false -> handle h cfg c e rq = Ok r ->
  o_cache r = c /\
  match c_allow_action cfg with
  | FIgnore => o_out r = OIgnore /\ o_regs r = [(r_fbv rq, false, Policy, RIgnore)]
  | FDeny => o_out r = OIgnore \/ (o_out r = ORespond ADenyKiss /\ exists v n, o_regs r = [(v, n, Policy, RDeny)])
  end.
Proof.
  intros h cfg c e rq r Hd Ha H.
  destruct (intended_action_spec h cfg c e) as [(N & _)|[(_ & _ & E)|(_ & N & _)]]; [congruence| |congruence].
  exact (listed h cfg c e rq c (c_allow_action cfg) r E H).
Qed.

(* Whatever made the intended action `Ignore` (a list, or the rate limit): nothing is sent, whatever
   the datagram contains. *)
Theorem C15_ignore_is_silent : forall h cfg c e rq c' w r,
  intended_action h cfg c e = Ok (c', RIgnore, w) -> handle h cfg c e rq = Ok r ->
  o_out r = OIgnore /\ o_regs r = [(r_fbv rq, false, w, RIgnore)].
Proof. intros h cfg c e rq c' w r Hi H. exact (proj2 (action_outcome h cfg c e rq c' FIgnore w r Hi H)). Qed.

(* Intended action `Deny`: the output is nothing or a DENY kiss -- never time and never a NAK; in
   particular an authentication failure does not change the action. *)
Theorem C15_deny_at_most_deny : forall h cfg c e rq c' w r,
  intended_action h cfg c e = Ok (c', RDeny, w) -> handle h cfg c e rq = Ok r ->
  o_out r = OIgnore \/ o_out r = ORespond ADenyKiss.
Proof.
  intros h cfg c e rq c' w r Hi H.
  destruct (proj2 (action_outcome h cfg c e rq c' FDeny w r Hi H)) as [G|(G & _)]; auto.
Qed.

(* Malformed datagrams (decoder error other than an authentication failure), non-client packets
   (also when their NTS field fails to authenticate) and requests in non-accepted versions are never
   answered. *)
Theorem C15_unanswered : forall h cfg c e rq r,
  (r_parse rq = PErr \/ r_client rq = false \/ existsb (version_eqb (r_ver rq)) (c_accepted cfg) = false) ->
  handle h cfg c e rq = Ok r -> o_out r = OIgnore.
Proof. exact unanswered. Qed.

(* NTS required: a request without a cookie that authenticates never receives time; a plain
   request (decoded, no cookie) gets nothing under `ignore` and at most a DENY kiss under `deny`. *)
Theorem C15_require_nts : forall h cfg c e rq r a,
  c_require_nts cfg = Some a -> (r_parse rq = POk -> r_cookie rq = false) ->
  handle h cfg c e rq = Ok r ->
  never_time r /\
  (r_parse rq = POk ->
   match a with FIgnore => o_out r = OIgnore | FDeny => o_out r = OIgnore \/ o_out r = ORespond ADenyKiss end).
Proof.
  intros h cfg c e rq r a Hreq Hck H. unfold never_time.
  destruct (handle_cases h cfg c e rq) as (c1 & act & why & Hi & [(w & E & _)|(_ & _ & a0 & w0 & ck & RC & E)]);
    rewrite E in H.
  - injection H as <-. cbn. split; [discriminate|]. intros _. destruct a; auto.
  - pose proof (intended_never_nak _ _ _ _ _ _ _ Hi) as Hnn.
    destruct (respond_shape _ _ _ _ _ _ _ _ H) as (_ & v & n & w & a' & _ & S). unfold respond_call in RC.
    (* a decoded request goes on without a cookie and with an action that is not the NAK: the NTS flag is off *)
    assert (Hn : r_parse rq = POk -> ck || response_eqb a0 RNak = false).
    { intros P. destruct RC as [(_ & -> & _ & ->)|(P' & _)]; [|congruence].
      rewrite (Hck P). destruct act; try reflexivity; congruence. }
    (* the branches of respond_shape, twice: nothing sent | time | DENY kiss | NAK *)
    split.
    + destruct S as [(Ho & _)|(_ & Hn' & _ & _ & [(_ & Ho & At & _ & Q)|[(_ & Ho & _)|(_ & Ho & _)]])];
        rewrite Ho; try discriminate.
      exfalso. destruct RC as [(P & _)|(_ & _ & [(_ & N & _)|(_ & N & _)])]; [|congruence|congruence].
      rewrite (Hn P) in Hn'. destruct Q; congruence.
    + intros P. destruct a.
      * eapply respond_require_ignore; eauto.
      * destruct S as [(Ho & _)|(_ & Hn' & _ & _ & [(_ & Ho & _ & _ & Q)|[(_ & Ho & _)|(_ & Ho & N & _)]])]; auto.
        -- exfalso. rewrite (Hn P) in Hn'. destruct Q; congruence.
        -- exfalso. rewrite N in Hn. destruct ck; discriminate (Hn P).
Qed.

(* A decoded client request of an accepted version, from a client that passes both lists and is not
   rate-limited, authenticated if NTS is required, receives time and is registered as
   Policy/ProvideTime with the NTS flag = cookie present -- provided the answer fits the caller's
   buffer ([e_ser_ok]; properties C16/C17), the clock can be read, the key set is usable and the
   published root delay is not negative ([env_ok]; see C22).  (NTPv3 requests never carry a cookie:
   the decoder does not parse extension fields for them.) *)
Theorem C15_served : forall h cfg c e rq c',
  e_in_deny e = false -> e_in_allow e = true ->
  is_allowed h c (e_addr e) (e_now e) (c_cutoff cfg) = Ok (c', true) ->
  r_parse rq = POk -> r_client rq = true ->
  existsb (version_eqb (r_ver rq)) (c_accepted cfg) = true ->
  (c_require_nts cfg = None \/ r_cookie rq = true) ->
  (r_ver rq = V3 -> r_cookie rq = false) ->
  env_ok e -> e_ser_ok e = true ->
  handle h cfg c e rq =
    Ok {| o_cache := c'; o_regs := [(version_u8 (r_ver rq), r_cookie rq, Policy, RProvideTime)]; o_out := ORespond ATime |}.
Proof.
  intros h cfg c e rq c' Hd Ha Hal Hp Hc Hacc Hreq Hv3 (Hl & Hk & Hy & Hrd) Hs.
  unfold handle, intended_action. rewrite Hd, Ha. cbn [negb]. rewrite Hal. cbn [res_bind negb response_eqb].
  rewrite Hp, Hc. unfold respond. rewrite Hacc, Hl, Hk, Hy, Hrd, Hs. cbn [negb response_eqb].
  rewrite Bool.orb_false_r, Bool.andb_false_r.
  destruct (r_cookie rq) eqn:Ck.
  - destruct (r_ver rq) eqn:Ev; [specialize (Hv3 eq_refl); discriminate| |];
      destruct (c_require_nts cfg) as [[|]|]; cbn; reflexivity.
  - destruct Hreq as [Hreq|Hreq]; [|discriminate]. rewrite Hreq. cbn. reflexivity.
Qed.

Definition nv_cfg : config :=
  {| c_deny_action := FDeny; c_allow_action := FIgnore; c_require_nts := Some FDeny;
     c_accepted := [V4; V5]; c_cutoff := 1000 |}.
Definition nv_env (d a : bool) : env :=
  {| e_addr := 7; e_in_deny := d; e_in_allow := a; e_now := 5; e_ser_ok := true; e_buf_ge4 := true;
     e_lock_ok := true; e_clock_ok := true; e_keys_ok := true; e_root_delay_nonneg := true |}.
Definition nv_req (p : parse) (v : version) (cl ck : bool) : request :=
  {| r_fbv := version_u8 v; r_parse := p; r_ver := v; r_client := cl; r_cookie := ck |}.

(* non-vacuity: an allowed NTS client gets time; a plain one a DENY kiss (NTS required, action deny);
   a denied client with a broken authenticator gets the DENY kiss, not a NAK; an allowed one the NAK;
   a server-mode datagram with a broken authenticator, an NTPv3 request and a client outside the
   allow list get nothing. *)
Example C15_nonvacuous :
  (exists r, handle (fun a => a) nv_cfg (new_cache 2) (nv_env false true) (nv_req POk V4 true true) = Ok r /\ o_out r = ORespond ATime)
  /\ (exists r, handle (fun a => a) nv_cfg (new_cache 2) (nv_env false true) (nv_req POk V4 true false) = Ok r /\ o_out r = ORespond ADenyKiss)
  /\ (exists r, handle (fun a => a) nv_cfg (new_cache 2) (nv_env true true) (nv_req PDecrypt V5 true false) = Ok r /\ o_out r = ORespond ADenyKiss)
  /\ (exists r, handle (fun a => a) nv_cfg (new_cache 2) (nv_env false true) (nv_req PDecrypt V5 true false) = Ok r /\ o_out r = ORespond ANak)
  /\ (exists r, handle (fun a => a) nv_cfg (new_cache 2) (nv_env false true) (nv_req PDecrypt V5 false false) = Ok r /\ o_out r = OIgnore)
  /\ (exists r, handle (fun a => a) nv_cfg (new_cache 2) (nv_env false true) (nv_req POk V3 true false) = Ok r /\ o_out r = OIgnore)
  /\ (exists r, handle (fun a => a) nv_cfg (new_cache 2) (nv_env false false) (nv_req POk V4 true true) = Ok r /\ o_out r = OIgnore).
Proof. repeat split; eexists; (split; [vm_compute; reflexivity|reflexivity]). Qed.

Print Assumptions C15_deny_first.
Print Assumptions C15_denied.
Print Assumptions C15_not_allowed.
Print Assumptions C15_ignore_is_silent.
Print Assumptions C15_deny_at_most_deny.
Print Assumptions C15_unanswered.
Print Assumptions C15_require_nts.
Print Assumptions C15_served.
