(* C06  Clock filter output stays finite and well-formed.  The lemmas these theorems rest on
   are in Proofs/Kalman.v and Proofs/KalmanSource.v.  The Kalman model (Model/Kalman.v) is
   written once against a numeric interface; it is executed at binary64 (bit-exact with the Rust code, checked by
   the correspondence on every run) and the theorems below are about the SAME code at the
   real numbers ([ROps fs rem]; [fs] = NtpDuration::from_seconds and [rem] = f64 `%` are
   arbitrary functions there).  [sp m Q] = every side condition recorded by [m] (divisor <> 0,
   sqrt argument >= 0 -- every division and square root of the model records one) holds, and
   the result satisfies Q.  [Inv P] = P is symmetric positive semidefinite.
   What is NOT proved: that the rounded binary64 computation keeps these invariants (named
   partial gap; attacked at run time by the adversarial histories of tools/props/c06.py). *)
From V Require Import Model.KalmanRun Proofs.Kalman Proofs.KalmanSource Proofs.KalmanTie Gen.ConstKalman.
From Coq Require Import Reals Lra String.
Close Scope float_scope.  (* numerals below are reals *)
Open Scope R_scope.

(* time update: covariance stays PSD for wander >= 0 at any (non-negative, guarded) time step;
   it becomes strictly positive when wander > 0 and time really advanced *)
Theorem C06_progress_exact : forall fs rem fuel k time w per,
  Inv (unc k) -> 0 <= w ->
  sp (progress_time (ROps fs rem) fuel k time w per)
     (fun k' => Inv (unc k') /\ (0 < w -> (0 < ts_sub time (ktime k))%Z -> 0 < a00 (unc k'))).
Proof. exact progress_sp. Qed.

(* measurement update as used by the source filter (H = [1 0]): innovation variance
   P00 + R > 0 suffices for 1/S, chi_1's sqrt and 1/(1+P x) to be defined; result PSD *)
Theorem C06_absorb_exact : forall fs rem fuel k value nz per corr e,
  Inv (unc k) -> 0 <= nz -> 0 < a00 (unc k) + nz ->
  sp (absorb (ROps fs rem) fuel k (Kalman.c1 (ROps fs rem)) (Kalman.c0 (ROps fs rem)) value nz per corr e)
     (fun r => Inv (unc (fst (fst r))) /\ ktime (fst (fst r)) = ktime k).
Proof. exact absorb_sp. Qed.

(* KalmanState::merge, the combination of two estimates: defined and PSD when det(P1+P2) > 0,
   which holds as soon as one of the two covariances is positive definite (det_sum_pos) *)
Theorem C06_merge_exact : forall fs rem k1 k2,
  Inv (unc k1) -> Inv (unc k2) ->
  0 < det2 (ROps fs rem) (madd2 (ROps fs rem) (unc k1) (unc k2)) ->
  sp (merge (ROps fs rem) k1 k2) (fun k' => Inv (unc k') /\ ktime k' = ktime k1).
Proof. exact merge_sp. Qed.

(* KalmanState::add_server_dispersion: adding the squared dispersion to P00 keeps the covariance
   PSD and does not lower the offset variance *)
Theorem C06_dispersion_exact : forall fs rem k disp,
  Inv (unc k) ->
  Inv (unc (add_server_dispersion (ROps fs rem) k disp)) /\
  a00 (unc k) <= a00 (unc (add_server_dispersion (ROps fs rem) k disp)).
Proof. exact dispersion_inv. Qed.

(* KalmanState::process_offset_steering shifts the offset estimate and the filter time only:
   no side condition fails and the covariance is unchanged *)
Theorem C06_offset_steering_exact : forall fs rem fuel k steer per,
  sp (k_offset_steering (ROps fs rem) fuel k steer per) (fun k' => unc k' = unc k).
Proof. exact offset_steering_sp. Qed.

(* KalmanState::process_frequency_steering is a time update followed by a shift of the frequency
   estimate: the covariance stays PSD for wander >= 0 *)
Theorem C06_frequency_steering_exact : forall fs rem fuel k time steer w per,
  Inv (unc k) -> 0 <= w ->
  sp (k_frequency_steering (ROps fs rem) fuel k time steer w per) (fun k' => Inv (unc k')).
Proof. exact frequency_steering_sp. Qed.

(* TimeSnapshot::root_dispersion: the sqrt argument is non-negative for a PSD (base, linear,
   quadratic) and cubic >= 0 whenever `now` is not before the base time *)
Theorem C06_root_dispersion_exact : forall fs rem base lin quad cubic t0 now,
  0 <= base -> 0 <= quad -> 0 <= base * quad - lin * lin -> 0 <= cubic -> is_before now t0 = false ->
  sp (root_dispersion (ROps fs rem) base lin quad cubic t0 now) (fun _ => True).
Proof. exact root_dispersion_sp. Qed.

(* ---- whole histories of a source controller (KalmanSourceController: two-way with the delay
   buffer, one-way with a fixed noise >= 0; periodic or not) ----
   For EVERY configuration with initial_wander <> 0, EVERY list of events -- measurements with
   arbitrary offsets, delays, times and oracle values, Step and FreqChange messages of the
   clock controller with arbitrary arguments (the steering fed back) -- such that no
   measurement is taken at exactly the instant the filter state is at ([hist_ok]; this is
   weaker than "strictly increasing local times": measurements from the past are allowed, they
   are ignored by the code), in exact arithmetic:
     * every divisor met is non-zero and every sqrt argument is non-negative, in every step and
       in every report (observe) made after it  ([run_obligs] collects all of them), and
     * every state reached satisfies the invariant [SInv] (covariance symmetric PSD, wander > 0).
   PARTIAL with respect to the property text: this is the model at the reals.  That the rounded
   binary64 run keeps every reported number finite is NOT proved (research-grade; observation
   O-1 shows the internal state can even become NaN after ~7800 noise-free samples while the
   observables stay finite); the clock controller (select/combine/steer, mod.rs) is covered by
   C06_merge_exact / C06_dispersion_exact / C06_root_dispersion_exact under their hypotheses and
   by the run-time monitor only. *)
Theorem C06_welldefined_exact_partial : forall fs rem cfg per n evs,
  cfg_ok cfg -> NoiseInv n ->
  hist_ok fs rem cfg per (source_new (ROps fs rem) n) evs ->
  Forall holds (run_obligs fs rem cfg per (source_new (ROps fs rem) n) evs) /\
  Forall SInv (run_states fs rem cfg per (source_new (ROps fs rem) n) evs).
Proof. intros. apply welldefined_exact; auto using initial_SInv. Qed.

(* the same from any state satisfying the invariant (e.g. in the middle of a run) *)
Theorem C06_welldefined_exact_from : forall fs rem cfg per s evs,
  cfg_ok cfg -> SInv s -> hist_ok fs rem cfg per s evs ->
  Forall holds (run_obligs fs rem cfg per s evs) /\ Forall SInv (run_states fs rem cfg per s evs).
Proof. exact welldefined_exact. Qed.

(* what a source reports: the uncertainty is the square root of a non-negative variance *)
Theorem C06_reported_uncertainty_exact : forall fs rem cfg s,
  SInv s -> forall sn, fst (source_snapshot (ROps fs rem) cfg s) = Some sn ->
  0 <= a00 (unc (sn_state sn)) /\ 0 <= sqrt (a00 (unc (sn_state sn))).
Proof.
  intros fs rem cfg s HS sn H. destruct (source_snapshot_sp fs rem cfg s HS) as (_ & Hq).
  split. apply Hq; auto. apply sqrt_pos.
Qed.

(* the model's literal constants (MIN_DELAY, buffer length, chi_1's coefficients, ...) are those
   of the Rust sources, the numbers of division, square-root and inverse sites counted there are
   the numbers the model was written against, and the sources have exactly one variant each of
   from_seconds (rounding or truncating), abs, and poll increment and decrement (saturating or
   wrapping) (Gen/ConstKalman.v is regenerated from the sources on every run) *)
Theorem C06_model_constants :
  Kalman.MIN_DELAY = (2 ^ (32 + KALMAN_MIN_DELAY_EXP))%Z
  /\ KALMAN_AVG_BUF_LEN = 8%Z /\ KALMAN_STABLE_AFTER = 8%Z /\ KALMAN_INIT_FREQ_UNC = 100%Z
  /\ KALMAN_CHI_CONSTS = " const P: f64 = 0.3275911; const A1: f64 = 0.254829592; const A2: f64 = -0.284496736; const A3: f64 = 1.421413741; const A4: f64 = -1.453152027; const A5: f64 = 1.061405429; "%string
  /\ (KALMAN_SQRT_SITES_SOURCE, KALMAN_INVERSE_SITES_SOURCE, KALMAN_DIV_SITES_SOURCE,
      KALMAN_DIV_SITES_MATRIX, KALMAN_SQRT_SITES_MOD) = (6, 3, 26, 3, 5)%Z
  /\ ((TT_FROM_SECONDS_ROUNDS + TT_FROM_SECONDS_TRUNCS, TT_ABS_SATURATES + TT_ABS_WRAPS,
       TT_POLL_INC_SATURATES + TT_POLL_INC_WRAPS, TT_POLL_DEC_SATURATES + TT_POLL_DEC_WRAPS) = (1, 1, 1, 1))%Z.
Proof. exact kalman_constants_tie. Qed.

(* non-vacuity: a positive definite covariance satisfies Inv and the extra hypotheses of
   C06_absorb_exact and C06_merge_exact *)
Example C06_nonvacuous :
  Inv (mkMat 4 1 1 1) /\ 0 < a00 (mkMat 4 1 1 1) + 0 /\
  (forall fs rem, 0 < det2 (ROps fs rem) (madd2 (ROps fs rem) (mkMat 4 1 1 1) (mkMat 0 0 0 0))).
Proof. unfold Inv, InvR; simpl. repeat split; try lra. intros; simpl; lra. Qed.

(* non-vacuity of the history theorem: the initial state satisfies the invariant, a history with
   measurements and a step is admissible, and a Kalman-stage state with singular covariance
   (P00 = 0, as after a noise-free measurement) satisfies the invariant and admits a later
   measurement *)
Example C06_nonvacuous_history : forall fs rem,
  let cfg := mkCfg R 0 0 16 0 0 0 16 0 5 1 1 0 4 10 4 O in
  cfg_ok cfg /\ NoiseInv (NBuf (repeat 0 8) 0) /\ NoiseInv (NFixed 0 1) /\
  hist_ok fs rem cfg None (source_new (ROps fs rem) (NBuf (repeat 0 8) 0))
          [Measure (mkMeas 100 5 1000 0 0) 0%Z 1; Step (1 / 2); Measure (mkMeas 100 7 2000 0 0) 0%Z 1] /\
  SInv (Stable (mkSF (mkK 0 0 (mkMat 0 0 0 1) 5000%Z) 1 (NFixed 0 1) 0 0 4 (mkMeas 0 0 5000 0 0) false 5000%Z)) /\
  meas_ok (Stable (mkSF (mkK 0 0 (mkMat 0 0 0 1) 5000%Z) 1 (NFixed 0 1) 0 0 4 (mkMeas 0 0 5000 0 0) false 5000%Z))
          (mkMeas 0 3 6000 0 0).
Proof.
  intros. unfold cfg_ok, NoiseInv, nonnegl, SInv, FInv, Inv, InvR, meas_ok; simpl.
  repeat split; try lra.
  - repeat (constructor; [lra|]). constructor.
  - discriminate.
Qed.

(* the binary64 instance that the correspondence executes is the same code: one time step and one
   conversion evaluated with primitive floats (1.5 s = 0x1_7FFFFFFF in 2^-32 s units) *)
Example C06_nonvacuous_float :
  run (9%Z, [4609434218613702656%Z]) = [6442450943%Z]
  /\ run (10%Z, [4294967296%Z]) = [4607182418801065984%Z].
Proof. vm_compute. split; reflexivity. Qed.

Print Assumptions C06_progress_exact.
Print Assumptions C06_absorb_exact.
Print Assumptions C06_merge_exact.
Print Assumptions C06_dispersion_exact.
Print Assumptions C06_offset_steering_exact.
Print Assumptions C06_frequency_steering_exact.
Print Assumptions C06_root_dispersion_exact.
Print Assumptions C06_welldefined_exact_partial.
Print Assumptions C06_welldefined_exact_from.
Print Assumptions C06_reported_uncertainty_exact.
Print Assumptions C06_model_constants.
