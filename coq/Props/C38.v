(* C38  ntp-ctl reads exactly what the daemon publishes.
   "Every state snapshot (with finite numbers) that the daemon writes to the
    observation socket is read back by ntp-ctl and the metrics exporter as an
    equal value, durations to within one part per billion plus one 2^-32 s
    unit, and messages announcing more than 1 MiB are rejected before any
    payload is read."
   Property theorems; their lemmas in Proofs/Framing.v, model in
   Model/Framing.v.  serde_json is not modelled: the payload codec is the pair
   [encode]/[decode] the theorems quantify over (oracle), its round trip on the
   written value is a hypothesis of C38_framing. *)
From V Require Import Model.Framing Proofs.Framing.

(* read (write v) = v for every payload codec, every value whose encoding
   decodes to itself and fits the 1 MiB limit, and every continuation of the
   stream: the value is returned, exactly the written bytes are consumed, and
   the rest of the stream (the next message) is left in place.
   (A snapshot whose JSON exceeds 1 MiB is written by the daemon but refused
   by the reader: the two halves of the property text exclude each other
   there; the hypothesis marks the reading chosen.) *)
Theorem C38_framing :
  forall (V : Type) (encode : V -> option (list Z)) (decode : list Z -> option V)
         (v : V) (bytes rest : list Z),
  encode v = Some bytes ->
  decode bytes = Some v ->
  Z.of_nat (length bytes) <= 2 ^ 20 ->
  exists w, write_json encode v = Ok w /\
    read_json decode (w ++ rest) = mk_rr (Ok v) (Z.of_nat (length w)) (Z.of_nat (length bytes)) /\
    skipn (length w) (w ++ rest) = rest.
Proof.
  intros V encode decode v bs rest He Hd Hl. unfold write_json. rewrite He. eexists. split; [reflexivity |].
  split; [| rewrite skipn_app, Nat.sub_diag, skipn_O, skipn_all; reflexivity].
  rewrite <- app_assoc.
  set (n := Z.of_nat (length bs)) in *. assert (Hn : 0 <= n < 2 ^ 64) by lia.
  pose proof (read_json_cases decode (be_bytes 8 n ++ bs ++ rest)) as C. cbn zeta in C.
  rewrite (header_read n _ Hn), !app_length, be_bytes_length in C.
  (* cases of read_json_cases: short header | too large | unrepresentable | truncated payload | decoded;
     the first four contradict the sizes *)
  destruct C as [[C _] | [(_ & C & _) | [(_ & _ & C & _) | [(_ & _ & C & _) | (_ & _ & _ & ->)]]]]; try (unfold n in *; flia).
  rewrite skipn_app, be_bytes_length, Nat.sub_diag, skipn_O, skipn_all2 by (rewrite be_bytes_length; lia).
  unfold n. rewrite Nat2Z.id. cbn [app]. rewrite firstn_app, Nat.sub_diag, firstn_O, app_nil_r, firstn_all, Hd.
  f_equal. rewrite app_length, be_bytes_length. flia.
Qed.

(* An announced length above 1 MiB (up to 2^64-1) is rejected with exactly the
   8 header bytes consumed, whatever follows in the stream (even nothing), and
   the caller's buffer stays empty (no allocation of the announced size). *)
Theorem C38_size_guard :
  forall (V : Type) (decode : list Z -> option V) (announced : Z) (rest : list Z),
  2 ^ 20 < announced < 2 ^ 64 ->
  read_json decode (be_bytes 8 announced ++ rest) = mk_rr (Err E_TOO_LARGE) 8 0.
Proof.
  intros V decode n rest H. apply size_guard.
  - rewrite app_length, be_bytes_length. flia.
  - rewrite header_read; flia.
Qed.

(* ... for every stream whose first eight bytes spell such a length *)
Theorem C38_size_guard_stream :
  forall (V : Type) (decode : list Z -> option V) (stream : list Z),
  8 <= Z.of_nat (length stream) ->
  be_Z (firstn 8 stream) > 2 ^ 20 ->
  read_json decode stream = mk_rr (Err E_TOO_LARGE) 8 0.
Proof. exact @size_guard. Qed.

(* and the limit is exact: 1 MiB itself is not refused for its size *)
Theorem C38_limit_exact :
  forall (V : Type) (decode : list Z -> option V) (stream : list Z),
  be_Z (firstn 8 stream) <= 2 ^ 20 ->
  rr_value (read_json decode stream) <> Err E_TOO_LARGE.
Proof.
  intros V decode stream H.
  (* short header | too large (contradicts H) | unrepresentable | truncated payload | decoded *)
  destruct (read_json_cases decode stream) as [[_ ->] | [(_ & C & _) | [(_ & _ & _ & ->) | [(_ & _ & _ & ->) | (_ & _ & _ & ->)]]]];
    cbn [rr_value]; try discriminate; [flia | destruct (decode _); discriminate].
Qed.

(* The reader never panics and never consumes more than the stream holds,
   for every byte stream (truncated, garbage, ...). *)
Theorem C38_read_total :
  forall (V : Type) (decode : list Z -> option V) (stream : list Z),
  Forall (fun b => 0 <= b < 256) stream ->
  (forall p, rr_value (read_json decode stream) <> Panic p) /\
  0 <= rr_consumed (read_json decode stream) <= Z.of_nat (length stream).
Proof.
  intros V decode stream HB. pose proof (header_bound stream HB) as [B0 _].
  (* short header | too large | unrepresentable | truncated payload | decoded: never a panic, and the
     bytes consumed are within the stream in each *)
  destruct (read_json_cases decode stream) as [[? ->] | [(? & _ & ->) | [(? & _ & _ & ->) | [(? & _ & _ & ->) | (? & _ & ? & ->)]]]];
    cbn [rr_value rr_consumed]; (split; [try destruct (decode _); discriminate | flia]).
Qed.

(* NOT PROVED HERE (partial): the numeric part of the payload.  Durations
   travel as float seconds: the value read is from_seconds (to_seconds d)
   (Model.Framing.duration_roundtrip, compared bit for bit with the
   implementation on every run); the bound |read - d| <= |d|*1e-9 + 1 unit is
   the subject of C32 (time arithmetic) and is evaluated by this check's
   monitor on every case.  That the JSON text of a finite f64 parses back to
   the same f64 is a property of serde_json (oracle), tested on every run by the float cases of this check
   (op "X" of tools/props/c38.py, CFloats in the model). *)

(* non-vacuity: a concrete codec (payload = list of small numbers written as
   their bytes), two messages back to back *)
Example C38_nonvacuous :
  let enc := fun l : list Z => Some l in
  let dec := fun l : list Z => Some l in
  exists w1 w2,
    write_json enc [123; 34; 97; 34; 58; 49; 125] = Ok w1 /\
    write_json enc [91; 93] = Ok w2 /\
    w1 = [0;0;0;0;0;0;0;7; 123; 34; 97; 34; 58; 49; 125] /\
    read_json dec (w1 ++ w2) = mk_rr (Ok [123; 34; 97; 34; 58; 49; 125]) 15 7 /\
    read_json dec (skipn 15 (w1 ++ w2)) = mk_rr (Ok [91; 93]) 10 2 /\
    read_json dec ([0;0;0;0;0;16;0;1] ++ [1;2;3]) = mk_rr (Err E_TOO_LARGE) 8 0 /\
    read_json dec ([255;255;255;255;255;255;255;255]) = mk_rr (Err E_TOO_LARGE) 8 0.
Proof.
  exists [0;0;0;0;0;0;0;7; 123; 34; 97; 34; 58; 49; 125], [0;0;0;0;0;0;0;2; 91; 93].
  vm_compute. repeat split.
Qed.

Print Assumptions C38_framing.
Print Assumptions C38_size_guard.
Print Assumptions C38_size_guard_stream.
Print Assumptions C38_limit_exact.
Print Assumptions C38_read_total.
