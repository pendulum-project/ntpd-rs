(* C35  Pool sources are distinct, bounded and respect the ignore list.
   Property theorems; the lemmas they rest on are in Proofs/Pool.v.

   Model: Model/Pool.v, the PoolSpawner of ntpd/src/daemon/spawn/pool.rs as on branch fix-c35
   (an address taken from known_ips that already has an active source is skipped).
   A history is any list of operations  TrySpawn dns  (one spawn round; [dns] is what lookup_host
   would answer in that round: None = error, Some l = any list, with duplicates, overlaps, ignored
   addresses)  and  Removed id reason  (any id, any reason, any order).  [trace c ops] is what is
   observable from outside: the SpawnEvents sent and the removal notifications received, in
   order; [active t] is the set of sources created and not yet removed after the events [t],
   computed from the trace alone.  All statements hold after EVERY prefix of the trace, i.e. also
   between two SpawnEvents of the same spawn round. *)
From V Require Import Model.Pool Proofs.Pool.

(* never more active sources than the configured count *)
Theorem C35_bounded : forall c ops t1 t2,
  trace c ops = t1 ++ t2 -> (length (active t1) <= count c)%nat.
Proof. intros. eapply pool_safe_at_every_point; eauto. Qed.

(* never two active sources for the same server address (ip and port) *)
Theorem C35_distinct : forall c ops t1 t2,
  trace c ops = t1 ++ t2 -> NoDup (cur_addrs (active t1)).
Proof. intros. eapply pool_safe_at_every_point; eauto. Qed.

(* never a source created for an ignored address *)
Theorem C35_no_ignored : forall c ops i a,
  In (Spawned i a) (trace c ops) -> ~ In (fst a) (ignore c).
Proof.
  intros c ops i a Hin. apply in_split in Hin. destruct Hin as [t1 [t2 Ht]].
  assert (Ht' : trace c ops = (t1 ++ [Spawned i a]) ++ t2) by (rewrite <- app_assoc; exact Ht).
  pose proof (pool_safe_at_every_point c ops _ _ Ht') as (_ & _ & Hign).
  specialize (Hign (i, a)). cbn in Hign. apply Hign.
  unfold active, active_from. rewrite fold_left_app. cbn. apply in_or_app; right; left; reflexivity.
Qed.

(* the three together, as one invariant over all prefixes *)
Theorem C35_always_safe : forall c ops, always (Safe c) (trace c ops) [].
Proof. exact pool_always_safe. Qed.

(* the spawner's own bookkeeping (current_sources) is exactly the active set of the trace *)
Theorem C35_state_is_active : forall c ops,
  current (fst (exec c ops pool0)) = active (trace c ops).
Proof. intros c ops. symmetry. apply (exec_spec c ops pool0 (Inv_pool0 c)). Qed.

(* ... so is_complete, which compares its length with count, reports exactly "count reached" *)
Theorem C35_complete_iff : forall c ops,
  let st := fst (exec c ops pool0) in
  is_complete c st = true <-> length (active (trace c ops)) = count c.
Proof.
  intros c ops st. unfold is_complete. subst st. rewrite C35_state_is_active.
  pose proof (pool_safe_at_every_point c ops (trace c ops) [] (eq_sym (app_nil_r _))) as (Hlen & _).
  rewrite Nat.leb_le. lia.
Qed.

(* The three requirements survive filtering: any sub-list of a Safe set of sources obtained by
   [filter] is Safe.  (Why this is stated: the system processes the SpawnEvents later and removes
   sources before the spawner hears of it, so what it has active is such a sub-list of [active t1]
   for the prefix t1 ending with the last event it processed; that relation itself is not
   modelled.) *)
Theorem C35_system_view : forall c act g, Safe c act -> Safe c (filter g act).
Proof. exact Safe_filter. Qed.

(* The code before the repair (same model, loop without the membership test) violates
   distinctness: count = 2 and the DNS answer [A; A].  This is the finding replayed by the check
   on a tree without fix-c35. *)
Theorem C35_distinct_refuted_before_fix :
  exists c ops, ~ NoDup (cur_addrs (active (trace_unrepaired c ops))).
Proof.
  exists (mkcfg 2 []), [TrySpawn (Some [(1, 123); (1, 123)])]. vm_compute.
  intros H. apply NoDup_cons_iff in H. apply (proj1 H). left; reflexivity.
Qed.

(* NTS pool (nts_pool.rs).  Model: the NtsPoolSpawner as on branch fix-c35-nts (the
   resolved socket address is kept per source; a key exchange result whose resolved address
   already has a source is skipped).  The TCP connection, the TLS key exchange and the resolution
   of the server named by the key exchange are oracle outcomes per loop iteration of try_spawn:
   any outcome, any name, any resolved address ([ops] is any history of such rounds and of
   removals of any id).  Proved: never more than count sources, never two sources with the same
   remote name (the SRV record name or else the server name returned by the key exchange) and
   never two sources with the same socket address.  The NTS pool configuration has no ignore
   list.
   Tie (harness/ntpd/c35n.rs): the real NtsPoolSpawner against real key exchange servers on
   loopback ports whose behaviour per connection is scripted; compared with run_nts (no SRV
   resolution: the script is the list of oracle outcomes) and run_srv (SRV resolution: the
   scripted queue known_resolutions determines the outcomes through the model of lookup(),
   srv_lookup / srv_outcomes); the last two theorems of this file say that these functions run
   the very nts_exec of this theorem.  Not covered by the tie: the DNS / SRV lookup itself
   (resolve_ke) and queue entries left over from a previous round (the harness replaces the queue
   before every round). *)
Theorem C35_nts_pool_bounded_distinct : forall n ops,
  let cur := ncurrent (nts_exec n ops (mkntspool [] 0)) in
  (length cur <= n)%nat /\ NoDup (nnames cur) /\ NoDup (naddrs cur).
Proof. intros; apply nts_pool_safe. repeat split; cbn; [lia | constructor | constructor]. Qed.

(* The code before the repair (same model, loop without the address test) violates address
   distinctness: count = 2 and two key exchanges that name different servers resolving to one
   socket address.  This is the finding (class C35-nts-pool-same-address) the check reports on a
   tree without fix-c35-nts. *)
Theorem C35_nts_pool_distinct_refuted_before_fix :
  exists n ops, ~ NoDup (naddrs (ncurrent (nts_exec_unrepaired n ops (mkntspool [] 0)))).
Proof.
  exists 2%nat, [NtsTrySpawn [KeOk None 1 (Some 7); KeOk None 2 (Some 7)]]. vm_compute.
  intros H. apply NoDup_cons_iff in H. apply (proj1 H). left; reflexivity.
Qed.

(* the function the implementation is compared with when there is no SRV resolution ends with the
   encoding (nts_final) of the state C35_nts_pool_bounded_distinct speaks about, for the same history *)
Theorem C35_nts_tie_runs_the_model : forall n ops,
  exists pre, run_nts (n, ops) = pre ++ nts_final (nts_exec n ops (mkntspool [] 0)).
Proof.
  intros n ops. unfold run_nts, nts_exec. cbn [fst snd]. generalize (mkntspool [] 0).
  induction ops as [| o r IH]; intros st.
  - exists []. reflexivity.
  - destruct o as [outs | id]; cbn [run_nts_ops nts_exec_with].
    + destruct (IH (fst (nts_try_spawn n st outs))) as [pre H]. rewrite H.
      eexists (_ :: _ :: _ ++ _ :: pre). cbn. rewrite <- app_assoc. reflexivity.
    + destruct (IH (nts_removed st id)) as [pre H]. rewrite H.
      exists (b2z (nts_is_complete n (nts_removed st id)) :: pre). reflexivity.
Qed.

(* ... with SRV resolution: run_srv ends with the state nts_exec reaches on the history of oracle
   outcomes that the scripted resolution queues determine (srv_to_nts) *)
Theorem C35_nts_srv_tie_runs_the_model : forall n ops,
  exists pre, run_srv (n, ops)
              = pre ++ nts_final (nts_exec n (srv_to_nts n ops (mkntspool [] 0)) (mkntspool [] 0)).
Proof.
  intros n ops. unfold run_srv, nts_exec. cbn [fst snd]. generalize (mkntspool [] 0).
  induction ops as [| o r IH]; intros st.
  - exists []. reflexivity.
  - destruct o as [q | id]; cbn [run_srv_ops srv_to_nts nts_exec_with].
    + set (outs := fst (srv_outcomes (n - length (ncurrent st)) q st)).
      destruct (IH (fst (nts_try_spawn n st outs))) as [pre H]. rewrite H.
      eexists (_ :: _ :: _ ++ _ :: _ :: pre). cbn. rewrite <- app_assoc. reflexivity.
    + destruct (IH (nts_removed st id)) as [pre H]. rewrite H.
      exists (b2z (nts_is_complete n (nts_removed st id)) :: pre). reflexivity.
Qed.

(* non-vacuity: count 2, ignore ip 3; answer [A;A;C(ignored);B]: sources on B then A (popped from
   the end), the second A stays in known_ips; after B is removed the next round finds that A
   (enough known addresses, so no lookup), skips it, and spawns nothing; the round after that
   resolves again ([A;B]) and refills with B *)
Example C35_nonvacuous :
  let c := mkcfg 2 [3] in
  let ops := [TrySpawn (Some [(1,123); (1,123); (3,123); (2,123)]); Removed 0 NetworkIssue;
              TrySpawn (Some [(1,123); (2,123)]); TrySpawn (Some [(1,123); (2,123)])] in
  trace c ops = [Spawned 0 (2,123); Spawned 1 (1,123); Gone 0; Spawned 2 (2,123)]
  /\ active (trace c ops) = [(1, (1,123)); (2, (2,123))]
  /\ trace_unrepaired c [TrySpawn (Some [(1,123); (1,123)])] = [Spawned 0 (1,123); Spawned 1 (1,123)].
Proof. vm_compute. repeat split. Qed.

(* NTS pool, count 3: a second answer for the same name and a different name resolving to the
   same address are both skipped; a timeout spawns nothing; an SRV name files the source under
   that name, and an answer without a resolved address is skipped *)
Example C35_nonvacuous_nts :
  ncurrent (nts_exec 3 [NtsTrySpawn [KeOk None 7 (Some 70); KeOk None 7 (Some 70); KeOk None 9 (Some 70)];
                        NtsTrySpawn [KeTimeout]; NtsTrySpawn [KeOk (Some 8) 7 (Some 71); KeOk None 6 None]]
                     (mkntspool [] 0)) = [(0, (7, 70)); (1, (8, 71))].
Proof. vm_compute. reflexivity. Qed.

(* SRV resolution, count 3: the second resolution (SRV name 20002) is answered by the same NTP
   server 7 (address 70) as the first: skipped by the address test (a loop iteration is used up);
   the third resolution carries the name of the first source and is dropped by lookup() without
   using up a loop iteration; the fourth has no SRV name and its answer names server 8: filed
   under 8 in the third and last iteration; the closed port that ends the queue is left (1) *)
Example C35_nonvacuous_nts_srv :
  run_srv (3%nat, [SrvTrySpawn [(Some 20001, SbOk 7 (Some 70)); (Some 20002, SbOk 7 (Some 70)); (Some 20001, SbOk 9 (Some 90));
                                (None, SbOk 8 (Some 80)); (None, SbRefused)]])
  = [3; 2; 0; 20001; 70; 1; 8; 80; 0; 1; 2; 0; 20001; 70; 1; 8; 80].
Proof. vm_compute. reflexivity. Qed.

Print Assumptions C35_bounded.
Print Assumptions C35_distinct.
Print Assumptions C35_no_ignored.
Print Assumptions C35_always_safe.
Print Assumptions C35_state_is_active.
Print Assumptions C35_complete_iff.
Print Assumptions C35_system_view.
Print Assumptions C35_distinct_refuted_before_fix.
Print Assumptions C35_nts_pool_bounded_distinct.
Print Assumptions C35_nts_pool_distinct_refuted_before_fix.
Print Assumptions C35_nts_tie_runs_the_model.
Print Assumptions C35_nts_srv_tie_runs_the_model.
