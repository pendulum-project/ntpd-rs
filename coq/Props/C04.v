(* C04  Leap-second announcements follow a strict majority of the selected
   sources.  The property's theorems; the lemmas about vote_leap they rest on
   are in Proofs/Combine.v. *)
From V Require Import Model.Combine Proofs.Combine.
From Coq Require Import Permutation.

(* The vote announces L exactly when L is a real indicator, no selected
   source is unsynchronised, and strictly more than half of the selected
   sources with a known leap status report L. *)
Theorem C04_majority : forall sel L,
  vote_leap sel = Ok (Some L) <->
  (votable L /\ ~ In Unsynchronized sel /\
   2 * count L sel > Z.of_nat (length sel) - count Unknown sel).
Proof.
  intros sel L. fold (majority L sel). pose proof (vote_leap_spec sel) as H. split.
  - intros E. rewrite E in H. destruct H as [Hn [HL M]]. repeat split; assumption.
  - intros (HL & Hn & M). destruct (vote_leap sel) as [[L'|]| |].
    + destruct H as [_ [HL' M']]. rewrite (majority_unique L' L sel HL' HL M' M). reflexivity.
    + destruct (proj2 H L HL M).
    + destruct H.
    + destruct (Hn H).
Qed.

(* The vote is None exactly when no selected source is unsynchronised and no
   indicator has that majority. *)
Theorem C04_none : forall sel,
  vote_leap sel = Ok None <->
  (~ In Unsynchronized sel /\ forall L, votable L -> ~ majority L sel).
Proof.
  intros sel. pose proof (vote_leap_spec sel) as H. split.
  - intros E. rewrite E in H. exact H.
  - intros [Hn Hall]. destruct (vote_leap sel) as [[L|]| |].
    + destruct H as [_ [HL M]]. destruct (Hall L HL M).
    + reflexivity.
    + destruct H.
    + destruct (Hn H).
Qed.

(* update_clock then keeps the previous indicator and makes no status_update
   call; an announced indicator is stored and reported once. *)
Theorem C04_applied : forall prev v,
  apply_vote prev v = match v with Some l => (l, [l]) | None => (prev, []) end.
Proof. reflexivity. Qed.

(* At most one indicator can have the majority, so the order in which the
   code tests the three candidates is immaterial. *)
Theorem C04_unique : forall L1 L2 sel,
  votable L1 -> votable L2 -> majority L1 sel -> majority L2 sel -> L1 = L2.
Proof. exact majority_unique. Qed.

(* The panic site is reached exactly when an unsynchronised source is selected
   (excluded by selection, C03_members_qualify). *)
Theorem C04_panic_iff : forall sel,
  (exists s, vote_leap sel = Panic s) <-> In Unsynchronized sel.
Proof.
  intros sel. pose proof (vote_leap_spec sel) as H. split.
  - intros [s E]. rewrite E in H. exact H.
  - intros Hin. destruct (vote_leap sel) as [v| |s]; [destruct (proj1 H Hin)|destruct H|eexists; reflexivity].
Qed.

(* The vote depends on the multiset of the selected sources' indicators only:
   not on their order, and on nothing outside the selection (the function has
   no other argument). *)
Theorem C04_multiset_only : forall s1 s2,
  Permutation s1 s2 -> vote_leap s1 = vote_leap s2.
Proof. exact vote_leap_perm. Qed.

(* non-vacuity: a 2-of-3 majority once the unknown vote is set aside; a tie; no known vote at all *)
Example C04_nonvacuous :
  vote_leap [Leap61; Unknown; Leap61; NoWarning] = Ok (Some Leap61)
  /\ vote_leap [Leap61; NoWarning] = Ok None
  /\ vote_leap [Unknown; Unknown] = Ok None.
Proof. vm_compute. repeat split. Qed.

Print Assumptions C04_majority.
Print Assumptions C04_none.
Print Assumptions C04_applied.
Print Assumptions C04_unique.
Print Assumptions C04_panic_iff.
Print Assumptions C04_multiset_only.
