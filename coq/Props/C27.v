(* C27  Server cookie keys persist safely across restarts and crashes.
   Property theorems; the lemmas they rest on are in Proofs/KeyFile.v, model of
   KeySetProvider::{store, load} (ntp-proto/src/keyset.rs) and of the "load or
   start fresh" of ntpd/src/daemon/nts_key_provider.rs in Model/KeyFile.v.
   The model is the REPAIRED load (branch fix-c27: `primary >= len` and an
   unrepresentable time stamp are rejected).

   Not proved, observed at run time by the harness: the 0600 mode of a newly
   created file.  Assumed: a crash during `store` leaves a prefix of the bytes
   that the sequential write_all calls were writing (file-system behaviour). *)
From V Require Import Model.KeyFile Proofs.KeySet Proofs.KeyFile.

(* Every key set the daemon can hold (valid primary, 64-byte keys, fewer than
   2^32 keys), stored at any representable time, loads back identically --
   also when followed by trailing bytes. *)
Theorem C27_roundtrip : forall ks t tail,
  FileOk ks -> 0 <= t <= i64_max -> load (store ks t ++ tail) = Ok (ks, t).
Proof. exact load_store. Qed.

(* ... so the restarted daemon holds exactly the stored key set and every
   cookie issued before the restart still decodes to its content *)
Theorem C27_restart_keeps_cookies : forall (enc : enc_t) (dec : dec_t) ks t fresh now c nonce b,
  aead_correct enc dec -> aead_tag16 enc ->
  FileOk ks -> 0 <= t <= i64_max -> wf_cookie c -> lenZ nonce = 16 ->
  encode_cookie enc ks c nonce = Ok b ->
  exists ks', start (Some (store ks t)) fresh now = Ok (ks', t) /\ ks' = ks /\ decode_cookie dec ks' b = Ok c.
Proof.
  intros enc dec ks t fresh now c nonce b H1 H2 Hf Ht Hwf Hn He.
  exists ks. split; [apply start_full; assumption|]. split; [reflexivity|].
  destruct Hf as (Hok & _). destruct (roundtrip enc dec H1 H2 ks c nonce Hok Hwf Hn) as (b' & He' & Hd).
  congruence.
Qed.

(* Crash points: EVERY proper prefix of the bytes being stored (the empty file
   after the truncating open included) is rejected by load ... *)
Theorem C27_crash : forall ks t p,
  FileOk ks -> proper_prefix p (store ks t) -> exists e, load p = Err e.
Proof. exact load_proper_prefix. Qed.

(* ... so after a crash at any point of the store the next start has exactly
   the key set being stored, or fresh keys. *)
Theorem C27_crash_restart : forall ks t p fresh now,
  FileOk ks -> 0 <= t <= i64_max -> prefix_of p (store ks t) ->
  start (Some p) fresh now = Ok (ks, t) \/ start (Some p) fresh now = Ok (new_keyset fresh, now).
Proof.
  intros ks t p fresh now H Ht (s & Hs). destruct s as [|x s].
  - left. rewrite app_nil_r in Hs. subst p. apply start_full; assumption.
  - right. apply (start_proper_prefix ks t); [assumption|]. exists (x :: s). split; [discriminate|assumption].
Qed.

(* Any file whatsoever (truncated, corrupted in any header field or key byte,
   arbitrary bytes): what load accepts is a well-formed key set that can issue
   a cookie and decode it back (no panic site is reachable: KeysOk excludes
   the only one, C26_encode_panic_iff) ... *)
Theorem C27_loaded_usable : forall (enc : enc_t) (dec : dec_t) b ks t,
  aead_correct enc dec -> aead_tag16 enc ->
  bytes_ok b -> load b = Ok (ks, t) -> KeysOk ks /\ usable enc dec ks.
Proof.
  intros enc dec b ks t H1 H2 Hb Hl. destruct (load_ok_inv b ks t Hb Hl) as ((Hok & _) & _).
  split; [exact Hok|apply keysok_usable; assumption].
Qed.

(* ... and has 64-byte keys, fewer than 2^32 of them, and a time stamp SystemTime can represent ... *)
Theorem C27_loaded_wellformed : forall b ks t,
  bytes_ok b -> load b = Ok (ks, t) ->
  KeysOk ks /\ Forall key_ok (keys ks) /\ lenZ (keys ks) < 2 ^ 32 /\ 0 <= t <= i64_max.
Proof. intros b ks t Hb Hl. destruct (load_ok_inv b ks t Hb Hl) as [(H1 & H2 & H3) Ht]. auto. Qed.

(* ... load itself never panics ... *)
Theorem C27_load_total : forall b, (exists e, load b = Err e) \/ (exists r, load b = Ok r).
Proof. exact load_total. Qed.

(* ... and the daemon therefore always starts (missing file, unreadable file,
   any content) with a usable key set: the loaded one or fresh keys. *)
Theorem C27_start_usable : forall (enc : enc_t) (dec : dec_t) file fresh now,
  aead_correct enc dec -> aead_tag16 enc ->
  (forall b, file = Some b -> bytes_ok b) -> key_ok fresh ->
  exists ks t, start file fresh now = Ok (ks, t) /\ KeysOk ks /\ usable enc dec ks.
Proof.
  intros enc dec file fresh now H1 H2 Hb Hf. destruct (start_any file fresh now Hb Hf) as (ks & t & Hs & (Hok & _)).
  exists ks, t. split; [exact Hs|]. split; [exact Hok|apply keysok_usable; assumption].
Qed.

(* non-vacuity: a two-key set stored and reloaded; its 147-byte prefix and its
   20-byte header are rejected; the 20-byte file with len = 0 that the
   unrepaired code accepted is rejected; a time stamp of 2^63 is rejected *)
Example C27_nonvacuous :
  let ks := {| keys := [repeat 1 64; repeat 2 64]; id_offset := 7; primary := 1 |} in
  load (store ks 1700000000) = Ok (ks, 1700000000) /\
  lenZ (store ks 1700000000) = 148 /\
  load (firstn 147 (store ks 1700000000)) = Err err_eof /\
  load (firstn 20 (store ks 1700000000)) = Err err_eof /\
  load (firstn 19 (store ks 1700000000)) = Err err_eof /\
  load (repeat 0 20) = Err err_other /\
  load (store ks (2 ^ 63)) = Err err_other /\
  load (store {| keys := keys ks; id_offset := 7; primary := 2 |} 5) = Err err_other.
Proof. vm_compute. repeat split. Qed.

(* the key set of the example above is one the daemon can hold (FileOk) *)
Example C27_nonvacuous_fileok :
  FileOk {| keys := [repeat 1 64; repeat 2 64]; id_offset := 7; primary := 1 |}.
Proof.
  unfold FileOk, KeysOk, lenZ. cbn [keys id_offset primary length].
  repeat split; try (vm_compute; congruence).
  repeat constructor; try (vm_compute; congruence); apply Forall_forall; intros x Hx; apply repeat_spec in Hx; subst; unfold is_byte; lia.
Qed.

Print Assumptions C27_roundtrip.
Print Assumptions C27_restart_keeps_cookies.
Print Assumptions C27_crash.
Print Assumptions C27_crash_restart.
Print Assumptions C27_loaded_usable.
Print Assumptions C27_loaded_wellformed.
Print Assumptions C27_load_total.
Print Assumptions C27_start_usable.
