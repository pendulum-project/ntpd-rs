(* C08  A source only accepts fresh answers to its own pending request.
   The lemmas behind the theorems are in Proofs/SourceIncoming.v.

   Vocabulary (Model/Source.v): [step_incoming c s now op] is handle_incoming on
   the decoder's result [op] ([None]: rejected by the decoder); [Measure id] is
   the hand-over of the two measurements of request number [id] to the clock
   filter (process_message); [s_req s] is current_request_identifier (request
   number, deadline); requests are numbered in the order they are built, a
   packet's [p_origin] / unique-identifier entries name the request whose random
   origin timestamp (NTPv5: client cookie) / identifier they equal. *)
From V Require Import Model.Source Gen.ConstSource Proofs.SourceBase Proofs.SourceIncoming.

(* A measurement is taken only from a decodable packet that answers the pending
   (= most recent) request: inside the poll window, of the expected protocol
   version, echoing the request's origin timestamp / client cookie and -- for NTS
   sources, whose requests carry one -- its unique identifier under the
   authenticator (at least one copy, none contradicting); it is not a kiss code,
   has stratum at most 16 and server mode.  Nothing else is emitted with it, and
   the request identifier is consumed. *)
Theorem C08_measure_only_if : forall c s now op s' acts id,
  step_incoming c s now op = (s', acts) -> In (Measure id) acts ->
  exists p dl, op = Some p /\ s_req s = Some (id, dl) /\ now <= dl
    /\ expected (s_ver s) (p_ver p) = true
    /\ p_origin p = id
    /\ (s_nts s = true -> uid_bound p id)
    /\ p_stratum p <> 0 /\ p_stratum p <= MAX_STRATUM /\ p_mode p = MODE_SERVER
    /\ acts = [Measure id] /\ s_req s' = None.
Proof. exact measure_only_if. Qed.

(* a measurement consumes current_request_identifier *)
Theorem C08_one_shot : forall c s now op s' acts id,
  step_incoming c s now op = (s', acts) -> In (Measure id) acts -> s_req s' = None.
Proof.
  intros c s now op s' acts id H M.
  destruct (measure_only_if _ _ _ _ _ _ _ H M) as (p & dl & X). tauto.
Qed.

(* Each request yields at most one measurement: in every run, from every state,
   no two Measure actions occur without a Send in between ([m] says whether a
   measurement was already taken for the request pending in [s]; then nothing is
   pending).  Replays and duplicates therefore produce nothing. *)
Theorem C08_at_most_one : forall c evs s s' tr m,
  run c s evs = Ok (s', tr) -> (m = true -> s_req s = None) ->
  one_per_request m (concat tr) = true.
Proof. exact at_most_one. Qed.

(* in particular from NtpSource::new, where nothing is pending and nothing was measured *)
Theorem C08_at_most_one_from_start : forall c nts stash v evs s' tr,
  run c (init c nts stash v) evs = Ok (s', tr) -> one_per_request false (concat tr) = true.
Proof. intros. eapply at_most_one; eauto; discriminate. Qed.

(* a datagram yields no action, Demobilize, or one Measure that consumes the request:
   never a request *)
Theorem C08_incoming_actions : forall c s now op s' acts,
  step_incoming c s now op = (s', acts) ->
  (acts = [] \/ acts = [Demobilize]) /\ s_req s' = s_req s \/
  (exists id dl, acts = [Measure id] /\ s_req s = Some (id, dl) /\ s_req s' = None).
Proof. exact step_incoming_req. Qed.

(* non-vacuity: a plain NTPv4 source polls, a genuine answer is measured, its
   byte-identical replay and a late answer to the next poll are ignored *)
Example C08_nonvacuous :
  let c := mkCfg 4 10 in
  let ans o := Some (mkPkt 4 4 2 4 0 false o false None [] []) in
  exists s' , run c (init c false [] V4)
      [Timer 0 4; Incoming 10 (ans 0); Incoming 11 (ans 0); Timer 16000 4; Incoming 21001 (ans 1); Incoming 21000 (ans 1)]
    = Ok (s', [[Send (mkReq 0 4 false 4 None 0 48); SetTimer 16]; [Measure 0]; [];
               [Send (mkReq 1 4 false 4 None 0 48); SetTimer 16]; []; [Measure 1]]).
Proof. eexists. vm_compute. reflexivity. Qed.

Print Assumptions C08_measure_only_if.
Print Assumptions C08_one_shot.
Print Assumptions C08_at_most_one.
Print Assumptions C08_at_most_one_from_start.
Print Assumptions C08_incoming_actions.
