(* C09  Kiss-o'-death codes are handled conservatively.
   The lemmas behind the theorems are in Proofs/SourceIncoming.v.

   A "valid answer" is a decoded packet accepted for the pending request:
   [accepts s now p = Some id] (pending, inside the window, expected version,
   valid_server_response).  [vstate s p] is [s] with only the version
   negotiation state advanced (C12).  Kiss predicates as in packet/mod.rs:
   NTPv3/4 by reference id; NTPv5: DENY = poll NEVER, RATE = poll above the
   interval just used, NTS NAK = authnak flag.  The statements are about the
   tree with branch fix-c07: a packet that is an NTS NAK is handled as NAK only. *)
From V Require Import Model.Source Gen.ConstSource Proofs.SourceBase Proofs.SourceIncoming.

(* RATE: no action; the remote minimum becomes at least the interval just used
   and at least one step above the old remote minimum (up to the configured
   maximum); nothing else of the polling / reachability state moves *)
Theorem C09_rate_step : forall c s now p id s' acts,
  accepts s now p = Some id -> is_kiss_ntsn p = false -> is_kiss_rate p (s_last_poll s) = true ->
  step_incoming c s now (Some p) = (s', acts) ->
  acts = [] /\ s_last_poll s <= s_remote_min s'
  /\ (in_i8 (s_remote_min s) -> s_remote_min s < 127 -> Z.min (s_remote_min s + 1) (c_max c) <= s_remote_min s')
  /\ s_last_poll s' = s_last_poll s /\ s_req s' = s_req s /\ s_deny s' = s_deny s
  /\ s_reach s' = s_reach s /\ s_stash s' = s_stash s.
Proof. exact rate_lengthens. Qed.

(* After a valid RATE answer the source never polls faster than it just did:
   every request of every continuation has a poll exponent >= the one of the
   request the RATE answered.  ([rate_inv]: the invariant of C09_remote_min_monotone,
   true after NtpSource::new; [wf_event]: poll fields and controller desires are i8.) *)
Theorem C09_rate_monotone : forall c s now p id s1 a evs s' tr,
  cfg_ok c -> rate_inv c s -> in_i8 (p_poll p) ->
  accepts s now p = Some id -> is_kiss_ntsn p = false -> is_kiss_rate p (s_last_poll s) = true ->
  step_incoming c s now (Some p) = (s1, a) ->
  Forall wf_event evs -> run c s1 evs = Ok (s', tr) ->
  Forall (fun x => match x with Send r => s_last_poll s <= r_poll r | _ => True end) (concat tr).
Proof.
  intros c s now p id s1 a evs s' tr C I W A N R H We Hr.
  destruct (rate_lengthens _ _ _ _ _ _ _ A N R H) as (_ & L & _).
  assert (S : step c s (Incoming now (Some p)) = Ok (s1, a)) by (cbn [step]; rewrite H; reflexivity).
  destruct (rate_inv_step c s (Incoming now (Some p)) s1 a C W I S) as [I1 _].
  destruct (remote_min_monotone _ _ _ _ _ C We I1 Hr) as (_ & _ & F).
  eapply Forall_impl; [|exact F]. intros x. destruct x; auto. lia.
Qed.

(* the remote minimum never decreases, and every request polls at least that slowly *)
Theorem C09_remote_min_monotone : forall c evs s s' tr,
  cfg_ok c -> Forall wf_event evs -> rate_inv c s -> run c s evs = Ok (s', tr) ->
  rate_inv c s' /\ s_remote_min s <= s_remote_min s'
  /\ Forall (fun a => match a with Send r => s_remote_min s <= r_poll r | _ => True end) (concat tr).
Proof. exact remote_min_monotone. Qed.

(* the state after NtpSource::new satisfies the invariant *)
Theorem C09_rate_inv_initially : forall c nts stash v, cfg_ok c -> rate_inv c (init c nts stash v).
Proof.
  intros c nts stash v C. unfold cfg_ok in C. unfold rate_inv, init, in_i8. simpl.
  repeat split; try lia; try congruence.
Qed.

(* DENY / RSTR: an NTS source is demobilised at once ... *)
Theorem C09_deny_nts : forall c s now p id,
  accepts s now p = Some id -> is_kiss_ntsn p = false ->
  is_kiss_rstr p || is_kiss_deny p = true -> s_nts s = true ->
  step_incoming c s now (Some p) = (vstate s p, [Demobilize]).
Proof.
  intros c s now p id A N D T.
  now rewrite step_incoming_accepts, A, dispatch_vstate, N, (deny_not_rate _ _ D), D, T.
Qed.

(* ... an unauthenticated source only remembers it ... *)
Theorem C09_deny_plain : forall c s now p id,
  accepts s now p = Some id -> is_kiss_ntsn p = false ->
  is_kiss_rstr p || is_kiss_deny p = true -> s_nts s = false ->
  step_incoming c s now (Some p) = (set_deny (vstate s p) true, []).
Proof.
  intros c s now p id A N D T.
  now rewrite step_incoming_accepts, A, dispatch_vstate, N, (deny_not_rate _ _ D), D, T.
Qed.

(* ... and is demobilised solely by a timer that finds it unreachable (no usable
   answer in the register, at least three tries) with that memory set *)
Theorem C09_plain_demobilize_only_if : forall c s e s' acts,
  s_nts s = false -> step c s e = Ok (s', acts) -> In Demobilize acts ->
  exists now d, e = Timer now d /\ s_reach s = 0 /\ STARTUP_TRIES_THRESHOLD <= s_tries s /\ s_deny s = true.
Proof.
  intros c s e s' acts N H I.
  destruct (demobilize_sources _ _ _ _ _ H I) as [X|(now & p & id & _ & T & _)]; auto. congruence.
Qed.

(* every Demobilize comes from that timer, or (NTS source) from an authenticated DENY / RSTR
   answer to the pending request *)
Theorem C09_demobilize_sources : forall c s e s' acts,
  step c s e = Ok (s', acts) -> In Demobilize acts ->
  (exists now d, e = Timer now d /\ s_reach s = 0 /\ STARTUP_TRIES_THRESHOLD <= s_tries s /\ s_deny s = true) \/
  (exists now p id, e = Incoming now (Some p) /\ s_nts s = true /\ accepts s now p = Some id
     /\ is_kiss_ntsn p = false /\ is_kiss_rstr p || is_kiss_deny p = true).
Proof. exact demobilize_sources. Qed.

(* an answer that is measured clears the deny memory and marks the source reachable *)
Theorem C09_answer_clears_deny : forall c s now op s' acts id,
  step_incoming c s now op = (s', acts) -> In (Measure id) acts ->
  s_deny s' = false /\ s_reach s' = reach_received (s_reach s).
Proof.
  intros c s now op s' acts id H M. apply step_incoming_cases in H.
  destruct H as [(_ & -> & _)|(p & id' & -> & A & O)]; [contradiction|].
  inversion O; subst; simpl in M; try tauto; try (destruct M as [M|[]]; discriminate).
  all: unfold process_message; simpl; auto.
Qed.

(* NTS NAK, or a kiss code that is none of RATE / DENY / RSTR: no action, and no
   field of the synchronisation, polling or demobilisation state changes
   ([vstate s p] differs from [s] in the version negotiation state only) *)
Theorem C09_ntsn_unknown_noop : forall c s now p id,
  accepts s now p = Some id ->
  is_kiss_ntsn p = true \/
  (is_kiss p = true /\ is_kiss_rate p (s_last_poll s) = false /\ is_kiss_rstr p = false /\ is_kiss_deny p = false) ->
  step_incoming c s now (Some p) = (vstate s p, []).
Proof.
  intros c s now p id A K. rewrite step_incoming_accepts, A, dispatch_vstate.
  destruct (is_kiss_ntsn p); [reflexivity|].
  destruct K as [K|(K & R & T & D)]; [discriminate|]. now rewrite R, T, D, K.
Qed.

(* non-vacuity: a plain NTPv4 source; RATE raises the remote minimum 4 -> 5, the next
   poll uses 5; DENY sets the memory; three silent polls later the timer demobilises *)
Example C09_nonvacuous :
  let c := mkCfg 4 10 in
  let kiss k o := Some (mkPkt 4 4 0 4 k false o false None [] []) in
  exists s', run c (init c false [] V4)
      [Timer 0 4; Incoming 10 (kiss KISS_RATE 0); Incoming 20 (kiss KISS_NTSN 0); Incoming 30 (kiss KISS_DENY 0);
       Timer 16000 4; Timer 32000 4; Timer 32000 4]
    = Ok (s', [[Send (mkReq 0 4 false 4 None 0 48); SetTimer 16]; []; []; [];
               [Send (mkReq 1 4 false 5 None 0 48); SetTimer 32];
               [Send (mkReq 2 4 false 5 None 0 48); SetTimer 32]; [Demobilize]]).
Proof. eexists. vm_compute. reflexivity. Qed.

Print Assumptions C09_rate_step.
Print Assumptions C09_rate_monotone.
Print Assumptions C09_remote_min_monotone.
Print Assumptions C09_rate_inv_initially.
Print Assumptions C09_deny_nts.
Print Assumptions C09_deny_plain.
Print Assumptions C09_plain_demobilize_only_if.
Print Assumptions C09_demobilize_sources.
Print Assumptions C09_answer_clears_deny.
Print Assumptions C09_ntsn_unknown_noop.
