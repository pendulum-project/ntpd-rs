(* C13  NTS cookies are used once, oldest first, and never hoarded.
   The lemmas behind the theorems are in Proofs/CookieStash.v and
   Proofs/SrcCore.v.  The model (Model/CookieStash.v, Model/SrcCore.v) is
   polymorphic in the cookie type C: the code never inspects a cookie except
   for its length [clen]; [dflt] is the empty vector left behind by
   std::mem::take.  A history is any list of events
     Timer | Usable cs | DenyKiss | Other | StoreCookie c
   (see Model/SrcCore.v), from a source created with an empty stash. *)
From V Require Import Model.CookieStash Model.SrcCore Model.SrcSpec
  Proofs.CookieStash Proofs.SrcCore.
From V Require Import Gen.ConstSource.

(* store appends; when eight cookies are held the oldest one is dropped *)
Theorem C13_store_keeps_newest : forall (C : Type) (dflt : C) (s : stash C) (c : C),
  stash_inv s ->
  stash_inv (store s c) /\
  abs dflt (store s c) = lastn NCOOK (abs dflt s ++ [c]).
Proof. intros. split; [apply inv_store; auto|apply abs_store; auto]. Qed.

(* get yields the oldest cookie held, removes it, and nothing else changes *)
Theorem C13_get_oldest : forall (C : Type) (dflt : C) (s : stash C),
  stash_inv s ->
  stash_inv (snd (get dflt s)) /\
  fst (get dflt s) = hd_error (abs dflt s) /\
  abs dflt (snd (get dflt s)) = tl (abs dflt s).
Proof. intros. split; [apply inv_get; auto|apply abs_get; auto]. Qed.

(* gap() is the number of cookies missing to eight, len() the number held *)
Theorem C13_gap : forall (C : Type) (dflt : C) (s : stash C),
  stash_inv s ->
  gap s = MAX_COOKIES - Z.of_nat (length (abs dflt s)) /\
  stash_len s = Z.of_nat (length (abs dflt s)) /\
  (length (abs dflt s) <= NCOOK)%nat.
Proof.
  intros. split; [apply gap_abs; auto|split; [|apply abs_bounded; auto]].
  unfold stash_len. rewrite length_abs. reflexivity.
Qed.

(* Used once, oldest first: the sequence of cookies put into requests is
   obtained from the sequence of cookies that arrived by deleting elements
   (every cookie sent is matched to its own arrival, in the same order). *)
Theorem C13_once_fifo : forall (C : Type) (dflt : C) (clen : C -> Z) (with_nts : bool)
    (evs : list (event C)),
  subseq (sent_cookies (run dflt clen (src_new dflt with_nts) evs)) (delivered evs).
Proof. intros. apply sent_subseq_new. Qed.

(* The same with cookies labelled by their arrival number: labels of the
   cookies sent strictly increase, in particular no label is sent twice. *)
Theorem C13_tags_increase : forall (C : Type) (dflt : C) (clen : C -> Z) (tag : C -> Z)
    (with_nts : bool) (evs : list (event C)),
  StronglySorted Z.lt (map tag (delivered evs)) ->
  StronglySorted Z.lt (map tag (sent_cookies (run dflt clen (src_new dflt with_nts) evs))).
Proof. intros. eapply subseq_map_sorted; [apply sent_subseq_new|eauto]. Qed.

(* no cookie that arrived once is sent twice *)
Theorem C13_once : forall (C : Type) (dflt : C) (clen : C -> Z) (with_nts : bool)
    (evs : list (event C)),
  NoDup (delivered evs) ->
  NoDup (sent_cookies (run dflt clen (src_new dflt with_nts) evs)).
Proof. intros. eapply subseq_NoDup; [apply sent_subseq_new|auto]. Qed.

(* At most eight are kept, and those kept are the newest of all that were
   stored (a suffix of the stored sequence). *)
Theorem C13_bounded : forall (C : Type) (dflt : C) (clen : C -> Z) (with_nts : bool)
    (evs : list (event C)),
  let st0 := src_new dflt with_nts in
  (length (held dflt (final dflt clen st0 evs)) <= NCOOK)%nat /\
  exists older, stored dflt clen st0 evs = older ++ held dflt (final dflt clen st0 evs).
Proof.
  intros. split; [apply (held_le dflt clen), inv_final, (inv_new dflt clen)|].
  destruct (held_newest dflt clen evs st0 (inv_new dflt clen with_nts)) as [p Hp].
  exists p. destruct with_nts; exact Hp.
Qed.

(* One step on the list of held cookies: a timer that polls takes the oldest;
   every other event appends what it stores and keeps the newest eight. *)
Theorem C13_step : forall (C : Type) (dflt : C) (clen : C -> Z) (st : src C) (e : event C),
  src_inv st ->
  src_inv (snd (step dflt clen st e)) /\
  held dflt (snd (step dflt clen st e)) =
  match e with
  | Timer => if reset_due st then held dflt st else tl (held dflt st)
  | _ => lastn NCOOK (held dflt st ++ stored_by st e)
  end.
Proof. intros. split; [apply inv_step; auto|apply held_step; auto]. Qed.

(* Each request carries the oldest cookie held and asks for exactly as many
   new cookies as are missing after taking it (the cookie itself counts for
   one, each placeholder for one more), limited only by
   floor(724 / max(len,1)) (capped at 255); when that limit is 0 (cookie longer
   than 724 bytes) or no cookie is held, the source is reset instead and
   nothing is sent. *)
Theorem C13_asks_for_missing : forall (C : Type) (dflt : C) (clen : C -> Z) (st : src C)
    (s : stash C),
  src_inv st -> nts st = Some s -> reset_due st = false ->
  match held dflt st with
  | [] => fst (handle_timer dflt clen st) = [Reset] /\
          held dflt (snd (handle_timer dflt clen st)) = []
  | c :: rest =>
      held dflt (snd (handle_timer dflt clen st)) = rest /\
      fst (handle_timer dflt clen st) =
        (if cookie_cap clen c =? 0 then [Reset]
         else [SendNts c (Z.min (MAX_COOKIES - Z.of_nat (length rest)) (cookie_cap clen c) - 1)])
  end.
Proof. intros. eapply timer_nts; eauto. Qed.

(* non-vacuity: ten cookies arrive, the two oldest are dropped, requests carry
   tags 3 then 4 and ask for 1 resp. 2 cookies (one placeholder); a 728-byte
   cookie is taken but not sent *)
Example C13_nonvacuous :
  let evs := map E_store [(1,100);(2,100);(3,100);(4,100);(5,100);(6,100);(7,100);(8,100);(9,100);(10,100)]
             ++ [E_timer; E_timer] in
  map (fun o => fst o) (run tc_dflt tc_len (src_new tc_dflt true) evs)
    = repeat [] 10 ++ [[SendNts (3,100) 0]; [SendNts (4,100) 1]]
  /\ StronglySorted Z.lt (map fst (delivered evs))
  /\ fst (handle_timer tc_dflt tc_len (final tc_dflt tc_len (src_new tc_dflt true) [E_store (1,728)])) = [Reset].
Proof. vm_compute. repeat split; repeat constructor. Qed.

Print Assumptions C13_store_keeps_newest.
Print Assumptions C13_get_oldest.
Print Assumptions C13_gap.
Print Assumptions C13_once_fifo.
Print Assumptions C13_tags_increase.
Print Assumptions C13_once.
Print Assumptions C13_bounded.
Print Assumptions C13_step.
Print Assumptions C13_asks_for_missing.
