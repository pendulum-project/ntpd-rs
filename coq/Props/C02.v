(* C02  Frequency corrections stay within the configured maximum.
   Property theorems; the lemmas behind them are in Proofs/ControllerFreq.v and
   Proofs/ControllerNan.v (Flocq bridge to Coq's primitive binary64 floats), the
   model in Model/Controller.v.

   Histories, configurations and states are those of Props/C01.v: any list of
   controller operations with arbitrary f64 estimates / requests (NaN,
   infinities, subnormals included), any configuration, ANY starting state --
   in particular any freq_offset, i.e. any frequency reported by the kernel at
   startup.  All comparisons are the hardware comparisons of binary64
   ([PrimFloat.leb] = Rust `<=`), so "f <= M" below is literally what a Rust
   `assert!(f <= M)` would test.

   [freq_in_range c f]: f is NaN, or -M <= f and f <= M for
   M = maximum_frequency_steer. *)
From V Require Import Model.Controller Proofs.Controller Proofs.ControllerFreq
  Proofs.ControllerNan.
From Coq Require Import Floats.
Import ListNotations.
Open Scope Z_scope.

(* f64::clamp as the code uses it: NaN goes to NaN, every other argument lands in [lo, hi] *)
Theorem C02_clamp_range : forall x lo hi r,
  f_clamp x lo hi = Ok r ->
  (f_is_nan x = true /\ f_is_nan r = true) \/
  (f_is_nan x = false /\ PrimFloat.leb lo r = true /\ PrimFloat.leb r hi = true).
Proof. exact clamp_range. Qed.

(* its `assert!(min <= max)` fires exactly when not (lo <= hi): for lo = -M, hi = M that is
   M negative or NaN -- not a configuration "with positive limits"; the model then says Panic *)
Theorem C02_clamp_panic_iff : forall x lo hi,
  (exists p, f_clamp x lo hi = Panic p) <-> PrimFloat.leb lo hi = false.
Proof. exact clamp_panic_iff. Qed.

(* Every frequency the controller applies (every set_frequency argument of every history,
   from any starting state, under any configuration) is NaN or lies within +-M.  No hypothesis
   on the kernel frequency: the first applied value is already a clamp output. *)
Theorem C02_set_frequency : forall ar c ops s,
  Forall (freq_in_range c) (freqs_of (fst (run ar c s ops))).
Proof. exact run_freqs_in_range. Qed.

(* The state variable freq_offset is the kernel's value until the first set_frequency and a
   clamp output (hence in range) from then on. *)
Theorem C02_freq_offset_state : forall ar c ops s s',
  snd (run ar c s ops) = Ok s' ->
  (freqs_of (fst (run ar c s ops)) = [] /\ freq_offset s' = freq_offset s) \/
  (freqs_of (fst (run ar c s ops)) <> [] /\ clamped c (freq_offset s')).
Proof. exact run_freq_offset. Qed.

(* Vocabulary of the theorems about NaN below (Proofs/ControllerNan.v), all hardware comparisons:
     f_finite x   := |x| < inf                                   (Rust x.is_finite())
     freq_ok s    := f_finite (freq_offset s) /\ -1 < freq_offset s      (the kernel frequency)
     slew_ok c s  := |desired_freq s| <= slew_max                 (true of init_st: desired_freq = 0)
     slew_cfg c   := 0 <= slew_max /\ 0 < slew_minimum_duration   (+inf allowed for both)
     nan_cfg c    := 0 < M /\ M < 1 /\ slew_cfg c /\ f_finite slew_max /\ f_finite steer_frequency_leftover
     op_ok c o    := SteerFreq ch: ch not NaN (+-inf allowed);  SteerOffset ch fd: fd finite (ch arbitrary);
                     Update (Some e): e_p11 finite and |e_freq| + slew_max < inf (float addition; true for
                     every finite e_freq as soon as slew_max <= 2^970); nothing for TimeUpdate/Update None.
     freq_within c f := f not NaN /\ -M <= f /\ f <= M.
   The other configuration fields (step_threshold, the offset thresholds/leftover, steer_frequency_threshold,
   the panic thresholds) and the offset part of an estimate are unconstrained (NaN, inf, negative included). *)

(* the clamp argument (1+f)(1+c)-1: not NaN for a finite f above -1 and a non-NaN c.  1+f is finite (no overflow
   for any finite f) and non-zero, so the product can only be NaN through c; inf - 1 = inf. *)
Theorem C02_clamp_arg_not_nan : forall f c,
  f_finite f = true -> PrimFloat.ltb (-1)%float f = true -> f_is_nan c = false ->
  f_is_nan (PrimFloat.sub (PrimFloat.mul (PrimFloat.add fone f) (PrimFloat.add fone c)) fone) = false.
Proof. exact arg_nn. Qed.

(* Every history: every set_frequency argument is a number (not NaN) within +-M. *)
Theorem C02_no_nan : forall ar c ops s,
  nan_cfg c -> freq_ok s -> slew_ok c s -> Forall (op_ok c) ops ->
  Forall (freq_within c) (freqs_of (fst (run ar c s ops))).
Proof.
  intros ar c ops s Hc Hf Hs Ho.
  assert (A : Forall (fun f => f_is_nan f = false) (freqs_of (fst (run ar c s ops)))).
  { apply (run_freqs_forall ar c (fun s => freq_ok s /\ slew_ok c s)); [| auto].
    intros s0 o cs r Hin [Hf0 Hs0] E. rewrite Forall_forall in Ho.
    destruct (step_nonan _ _ _ _ _ _ Hc Hf0 Hs0 (Ho o Hin) E) as [F1 F2]. split; [exact F1 |].
    intros s' ->. split; [exact (F2 s' eq_refl) |].
    destruct Hc as (_ & _ & Hsc & _). exact (step_slew_ok _ _ _ _ _ _ Hsc Hs0 E). }
  pose proof (run_freqs_in_range ar c ops s) as R.
  rewrite Forall_forall in *. intros f I. specialize (A f I). specialize (R f I).
  destruct R as [R | R]; [cbv beta in A; congruence |].
  split; [exact A | exact R].
Qed.

(* The hypothesis |e_freq| + slew_max < inf of op_ok cannot be dropped: "every input finite, every configuration
   value finite and positive, M < 1, kernel frequency 0" is NOT enough.  With slew_max = 1e308,
   steer_frequency_leftover = 1e200: a slew request of 1.5e308 s sets desired_freq = -1e308; a consensus update
   with frequency estimate 1e308, frequency variance 1e300 then forms freq_delta = 1e308 - (-1e308) = +inf and
   sqrt(1e300) * 1e200 = +inf, and requests inf - inf = NaN: set_frequency(NaN).  (Under the hypotheses of
   C02_no_nan no NaN is produced.)  The same inputs on the implementation (harness/ntp-proto/c02.rs,
   reports/K1_C02_nan_witness.json) give set_frequency(NaN) as well. *)
Theorem C02_no_nan_refuted :
  exists c f0 ops,
    forallb f_finite (cfg_floats c) = true /\
    forallb (PrimFloat.ltb 0%float) (cfg_floats c) = true /\
    PrimFloat.ltb (c_max_freq c) 1%float = true /\
    f_finite f0 = true /\ PrimFloat.ltb (-1)%float f0 = true /\
    forallb f_finite (flat_map op_floats ops) = true /\
    existsb f_is_nan (freqs_of (fst (run repo_arith c (init_st f0) ops))) = true.
Proof.
  exists nan_witness_cfg, 0%float, nan_witness_ops. vm_compute. repeat split.
Qed.

(* f64::min with a non-NaN first operand never exceeds it (a NaN second operand is ignored) *)
Theorem C02_min_bound : forall s q,
  f_is_nan s = false -> PrimFloat.leb (f_min s q) s = true.
Proof. exact min_bound. Qed.

(* Every slew: the frequency chosen is at most slew_maximum_frequency_offset, whatever the
   request and the minimum duration ... *)
Theorem C02_slew_frequency : forall c ch,
  f_is_nan (c_slew_max c) = false ->
  PrimFloat.leb (slew_freq c ch) (c_slew_max c) = true.
Proof. intros c ch H. unfold slew_freq. apply min_bound. exact H. Qed.

(* ... a slew is started only for a non-NaN request, with desired_freq = -freq * signum(request),
   signum(request) = +-1.0 ... *)
Theorem C02_slew_desired : forall ar c s ch fd cs s',
  PrimFloat.ltb (c_step_threshold c) (PrimFloat.abs ch) = false ->
  steer_offset ar c s ch fd = (cs, Ok s') ->
  desired_freq s' = PrimFloat.mul (PrimFloat.opp (slew_freq c ch)) (f_signum ch) /\
  f_is_nan ch = false.
Proof. exact slew_started. Qed.
(* ... whose magnitude is the slew frequency (multiplying by +-1.0 and negating are exact) ... *)
Theorem C02_slew_exact : forall fr ch, f_is_nan ch = false ->
  PrimFloat.abs (PrimFloat.mul (PrimFloat.opp fr) (f_signum ch)) = PrimFloat.abs fr.
Proof. exact desired_abs. Qed.

(* ... which lies in [0, slew_max] under positive slew limits (|change| / duration has its sign bit clear or is
   NaN, and f64::min ignores the NaN) ... *)
Theorem C02_slew_frequency_abs : forall c ch,
  PrimFloat.leb 0%float (c_slew_max c) = true -> PrimFloat.ltb 0%float (c_slew_min_dur c) = true ->
  PrimFloat.leb (PrimFloat.abs (slew_freq c ch)) (c_slew_max c) = true.
Proof. exact slew_freq_abs. Qed.

(* ... so every slew started leaves |desired_freq| <= slew_max: for the single call from any state ... *)
Theorem C02_slew_started_bound : forall ar c s ch fd cs s',
  slew_cfg c ->
  PrimFloat.ltb (c_step_threshold c) (PrimFloat.abs ch) = false ->
  steer_offset ar c s ch fd = (cs, Ok s') ->
  slew_ok c s'.
Proof. exact slew_started_bound. Qed.

(* ... and along every history (any operations, estimates and requests, NaN/inf included): every state an
   operation starts in, and the final state, satisfy |desired_freq| <= slew_max.  Hypotheses: positive slew
   limits only (0 <= slew_max, 0 < slew_minimum_duration; a duration of -0.0 or below gives freq = -inf). *)
Theorem C02_slew_bound : forall ar c ops s,
  slew_cfg c -> slew_ok c s ->
  Forall (fun x => slew_ok c (fst x)) (fst (trace ar c s ops)) /\
  (forall s', snd (run ar c s ops) = Ok s' -> slew_ok c s').
Proof.
  intros ar c ops s Hc Hs.
  destruct (trace_invariant ar c (slew_ok c) (fun _ => True) ops) with (s := s) as [T F]; auto.
  - intros s0 o cs r _ H0 E. split; [exact I |]. intros s' ->. exact (step_slew_ok _ _ _ _ _ _ Hc H0 E).
  - split; [| rewrite run_trace; exact F].
    eapply Forall_impl; [| exact T]. intros x [Hx _]. exact Hx.
Qed.

(* ... and time_update, which is change_desired_frequency with new frequency 0 and delta 0, ends it. *)
Theorem C02_slew_ends : forall c s cs s',
  change_desired_frequency c s fzero fzero = (cs, Ok s') -> desired_freq s' = fzero.
Proof. intros c s cs s' H. exact (steer_frequency_desired _ _ _ _ _ H). Qed.

(* non-vacuity: a kernel frequency far outside the limit, a huge request and an infinite one are
   all clamped to +-M; a slew above and one below slew_max *)
Example C02_nonvacuous :
  let c := witness_cfg in
  let s := init_st 0.25%float in
  freqs_of (fst (run repo_arith c s [SteerFreq 1e-9%float; SteerFreq (-3)%float; SteerFreq infinity]))
    = [c_max_freq c; PrimFloat.opp (c_max_freq c); c_max_freq c] /\
  slew_freq c 0.009%float = c_slew_max c /\
  PrimFloat.ltb (slew_freq c 0.0001%float) (c_slew_max c) = true /\
  (exists cs s', steer_offset repo_arith c s 0.009%float 0%float = (cs, Ok s') /\
                 desired_freq s' = PrimFloat.opp (c_slew_max c)).
Proof.
  vm_compute. repeat split. eexists. eexists. split; reflexivity.
Qed.

(* non-vacuity of C02_no_nan / C02_slew_bound: the default-like configuration, a kernel frequency of 10 ppm,
   a history with a frequency steer, a slew at slew_max, a consensus update during the slew, the end of the slew
   and two infinite requests satisfy the hypotheses; six frequencies are applied, the last two are the limits *)
Example C02_nonvacuous_no_nan :
  let c := witness_cfg in
  let s := init_st 0.00001%float in
  nan_cfg c /\ slew_cfg c /\ freq_ok s /\ slew_ok c s /\ Forall (op_ok c) nv_ops /\
  length (freqs_of (fst (run repo_arith c s nv_ops))) = 6%nat /\
  skipn 4 (freqs_of (fst (run repo_arith c s nv_ops))) = [c_max_freq c; PrimFloat.opp (c_max_freq c)] /\
  (exists s1, snd (run repo_arith c s (firstn 2 nv_ops)) = Ok s1 /\
              desired_freq s1 = PrimFloat.opp (c_slew_max c)).
Proof.
  vm_compute. repeat split; repeat constructor. eexists. split; reflexivity.
Qed.

Print Assumptions C02_clamp_range.
Print Assumptions C02_clamp_panic_iff.
Print Assumptions C02_set_frequency.
Print Assumptions C02_freq_offset_state.
Print Assumptions C02_clamp_arg_not_nan.
Print Assumptions C02_no_nan.
Print Assumptions C02_no_nan_refuted.
Print Assumptions C02_min_bound.
Print Assumptions C02_slew_frequency.
Print Assumptions C02_slew_desired.
Print Assumptions C02_slew_exact.
Print Assumptions C02_slew_frequency_abs.
Print Assumptions C02_slew_started_bound.
Print Assumptions C02_slew_bound.
Print Assumptions C02_slew_ends.
