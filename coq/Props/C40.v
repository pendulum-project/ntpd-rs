(* C40  GPSd samples are validated before use.
   "A datagram on the GPSd socket becomes a measurement only if it has the exact
    sample size, the correct magic number, a zero pulse flag and a finite
    offset; any other datagram is rejected without crashing the daemon."
   Property theorems; their lemmas are in Proofs/SockSample.v, the model in
   Model/SockSample.v (the code with the finite check and a receive buffer one byte
   larger than a sample).  A datagram is any list of bytes, of any length. *)
From V Require Import Model.SockSample Proofs.SockSample Base.D3FloatFacts.

(* The loop iteration (recv into the fixed buffer, receive_sample,
   deserialize_sample) yields a sample exactly when the DATAGRAM has 40 bytes,
   magic 0x534f434b at bytes 36..40, pulse 0 at 24..28 and a finite binary64 at
   16..24 (little endian); the sample is then the datagram's fields. *)
Theorem C40_accept_iff : forall (d : list Z) (s : sample),
  handle_datagram d = Ok s <->
  (length d = 40%nat /\ s = sample_of_buf d /\ s_magic s = 0x534f434b /\ s_pulse s = 0 /\
   f64_is_finite (f64_of_bits (s_offset s)) = true).
Proof.
  intros d s. rewrite handle_datagram_spec, decide_ok_iff.
  split; intros (H & R); (split; [lia | exact R]).
Qed.

(* The same for the function deserialize_sample itself, for every reported
   receive result (None = I/O error) and every 40-byte buffer. *)
Theorem C40_deserialize_accept_iff : forall (r : option Z) (buf : list Z) (s : sample),
  length buf = 40%nat ->
  (deserialize_sample r buf = Ok s <->
   (r = Some 40 /\ s = sample_of_buf buf /\ s_magic s = 0x534f434b /\ s_pulse s = 0 /\
    f64_is_finite (f64_of_bits (s_offset s)) = true)).
Proof.
  intros r buf s Hlen. destruct r as [size |].
  - rewrite (deserialize_spec size buf Hlen), decide_ok_iff.
    split; intros (H & R); (split; [| exact R]); congruence.
  - cbn. split; [discriminate | intros [H _]; discriminate].
Qed.

(* "finite" on the wire: the exponent field of the pattern is not all ones. *)
Theorem C40_finite_bits : forall b,
  f64_is_finite (f64_of_bits b) = true <-> (b / 2 ^ 52) mod 2 ^ 11 <> 2047.
Proof.
  intros b. rewrite f64_is_finite_bits. fold (f64_exp_field b).
  destruct (Z.eqb_spec (f64_exp_field b) 2047); cbn; split; congruence.
Qed.

(* ... and in terms of f64::is_nan / is_infinite, the two predicates of the debug assertion in
   NtpDuration::from_seconds: an accepted offset passes it. *)
Theorem C40_finite_not_nan_inf : forall b,
  f64_is_finite (f64_of_bits b) = true <->
  (f64_is_nan (f64_of_bits b) = false /\ f64_is_infinite (f64_of_bits b) = false).
Proof.
  intros b. rewrite f64_finite_iff.
  destruct (f64_is_nan (f64_of_bits b)), (f64_is_infinite (f64_of_bits b)); cbn; split;
    try tauto; try discriminate; intros [? ?]; discriminate.
Qed.

(* A datagram of any other length -- in particular a longer one, which recv
   truncates -- is rejected with WrongSize. *)
Theorem C40_wrong_length_rejected : forall d,
  length d <> 40%nat -> handle_datagram d = Err E_SIZE.
Proof.
  intros d H. rewrite handle_datagram_spec. apply decide_wrong_size. lia.
Qed.

(* The controller is handed a measurement exactly for accepted samples ... *)
Theorem C40_measurement_only_if_accepted : forall time d m,
  task_step time d = Some m <->
  exists s, handle_datagram d = Ok s /\ m = measurement_of time s.
Proof.
  intros time d m. unfold task_step. destruct (handle_datagram d) as [s | |].
  - split; [intros H; inversion H; eauto | intros (s' & H & ->); inversion H; reflexivity].
  - split; [discriminate | intros (s' & H & _); discriminate].
  - split; [discriminate | intros (s' & H & _); discriminate].
Qed.

(* ... and the offset the controller derives from it (sender - receiver,
   wrapping) is the negated conversion of the sample's offset by
   NtpDuration::from_seconds, the receive time being the clock reading. *)
Theorem C40_measurement : forall time s,
  m_receiver_ts (measurement_of time s) = time /\
  measured_offset (measurement_of time s) =
    to_signed 64 (- from_seconds (f64_of_bits (s_offset s))).
Proof. split; [reflexivity | apply measured_offset_spec]. Qed.

(* No datagram reaches a panic site (slice ranges, copy_from_slice). *)
Theorem C40_total : forall d p, handle_datagram d <> Panic p.
Proof. intros d p. rewrite handle_datagram_spec. apply decide_no_panic. Qed.

(* The same for deserialize_sample itself, whatever the reported receive result. *)
Theorem C40_deserialize_total : forall r buf p,
  length buf = 40%nat -> deserialize_sample r buf <> Panic p.
Proof.
  intros r buf p Hlen. destruct r as [size |]; [| discriminate].
  rewrite (deserialize_spec size buf Hlen). apply decide_no_panic.
Qed.

(* non-vacuity: the sample of the repository's unit test is accepted and gives
   the measurement offset -318975.70479866 s; the same datagram with an
   infinite offset, and a 50-byte datagram starting with it, are rejected *)
Example C40_nonvacuous :
  (exists s, handle_datagram example_dgram = Ok s /\
     s_offset s = 0x411377fed1b6bd7d /\
     measured_offset (measurement_of 12345 s) = -1369990220328798)
  /\ handle_datagram (firstn 16 example_dgram ++ [0;0;0;0;0;0;240;127] ++ skipn 24 example_dgram)
     = Err E_OFFSET
  /\ handle_datagram (example_dgram ++ repeat 0 10) = Err E_SIZE.
Proof. split; [eexists; split; [vm_compute; reflexivity| split; vm_compute; reflexivity] | split; vm_compute; reflexivity]. Qed.

Print Assumptions C40_accept_iff.
Print Assumptions C40_deserialize_accept_iff.
Print Assumptions C40_finite_bits.
Print Assumptions C40_finite_not_nan_inf.
Print Assumptions C40_wrong_length_rejected.
Print Assumptions C40_measurement_only_if_accepted.
Print Assumptions C40_measurement.
Print Assumptions C40_total.
Print Assumptions C40_deserialize_total.
