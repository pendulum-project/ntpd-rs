(* C28  NTS key exchange negotiates only mutually supported parameters.
   Property theorems; the lemmas they rest on are in Proofs/NtsKe.v.

   The TLS exporter is an arbitrary function  export protocol algorithm = (c2s, s2c)
   shared by both ends of one session; a server cookie is symbolic (RCookie alg
   c2s s2c = a NewCookie record that decodes under the key set to these keys).
   The client model is the REPAIRED client (branch fix-c28: membership test). *)
From V Require Import Model.NtsKe Proofs.NtsKe Proofs.NtsMsg Gen.ConstNts.

(* The server's choice, for every client preference list and every accepted set:
   the first client-listed protocol it accepts and the first client-listed
   algorithm it supports; the no-overlap answers otherwise. *)
Theorem C28_server_choice : forall cfg export permit als ps dn,
  (forall p a, first_such (accepts cfg) ps p -> first_such known_algorithm als a ->
     handle_new cfg export permit (Ok (KeyExchange als ps dn)) =
     (ke_response cfg p a (cookies_for a (fst (export p a)) (snd (export p a))) false, Closed 0, false))
  /\ ((forall p, In p ps -> accepts cfg p = false) ->
     handle_new cfg export permit (Ok (KeyExchange als ps dn)) =
     ([RRec (NextProtocolR []); RRec EndOfMessage], Closed E_NO_PROTOCOL, false))
  /\ (forall p, first_such (accepts cfg) ps p -> (forall a, In a als -> known_algorithm a = false) ->
     handle_new cfg export permit (Ok (KeyExchange als ps dn)) =
     ([RRec (NextProtocolR [p]); RRec (AeadAlgorithmR []); RRec EndOfMessage], Closed E_NO_ALGORITHM, false)).
Proof.
  intros cfg export permit als ps dn. cbn [handle_new]. fold (accepts cfg). repeat split.
  - intros p a Fp Fa. apply find_first in Fp. apply find_first in Fa. rewrite Fp, Fa.
    destruct (export p a). reflexivity.
  - intros N. apply find_none_iff in N. rewrite N. reflexivity.
  - intros p Fp N. apply find_first in Fp. apply find_none_iff in N. rewrite Fp, N. reflexivity.
Qed.

(* "accepts" is membership in the configured protocol list; "supported" means one of the
   two AES-SIV-CMAC algorithms. *)
Theorem C28_accepts_supported : forall cfg p a,
  (accepts cfg p = true <-> In p (c_protocols cfg))
  /\ (known_algorithm a = true <-> a = AEAD_AES_SIV_CMAC_256 \/ a = AEAD_AES_SIV_CMAC_512).
Proof. intros cfg p a. split; [exact (accepts_in cfg p)|exact (known_algorithm_iff a)]. Qed.

(* Whatever the server answers to a key-exchange request, every cookie in it is
   one of exactly eight, each carrying the keys exported for the chosen pair. *)
Theorem C28_server_cookies : forall cfg export permit als ps dn resp e asked,
  handle_new cfg export permit (Ok (KeyExchange als ps dn)) = (resp, e, asked) ->
  forall i, In i resp -> is_cookie i = true ->
  exists p a, first_such (accepts cfg) ps p /\ first_such known_algorithm als a
              /\ i = RCookie a (fst (export p a)) (snd (export p a))
              /\ length (filter is_cookie resp) = 8%nat.
Proof.
  intros cfg export permit als ps dn resp e asked H.
  destruct (handle_new_ke cfg export permit als ps dn) as [(p & a & Fp & Fa & E)|[E|(p & E)]];
    rewrite E in H; injection H as <- <- <-.
  - intros i Hin Hc. exists p, a. repeat split; try assumption.
    + apply cookies_for_spec. rewrite <- (ke_response_cookies cfg p a _ _ false). apply filter_In. split; assumption.
    + rewrite ke_response_cookies. apply cookies_for_spec.
  - intros i [<-|[<-|[]]]; discriminate.
  - intros i [<-|[<-|[<-|[]]]]; discriminate.
Qed.

(* The client (repaired): for EVERY response byte stream, a successful exchange
   returns a protocol and an algorithm the client offered, the keys exported
   for exactly that pair, the matching protocol version, at least one cookie. *)
Theorem C28_client_offered : forall protos algs export name resp k,
  client_process protos algs export name resp = Ok k ->
  In (k_protocol k) protos /\ In (k_algorithm k) algs
  /\ (k_c2s k, k_s2c k) = export (k_protocol k) (k_algorithm k)
  /\ known_algorithm (k_algorithm k) = true
  /\ ((k_version k = 4 /\ k_protocol k = PROTO_NTPV4) \/ (k_version k = 5 /\ k_protocol k = PROTO_DRAFT_NTPV5))
  /\ k_cookies k <> [].
Proof.
  intros protos algs export name resp k H.
  destruct (client_process_inv _ _ _ _ _ _ H) as (r & v & _ & P & A & K & C & V & ->).
  cbn [k_protocol k_algorithm k_c2s k_s2c k_version k_cookies].
  repeat split; try assumption. symmetry. apply surjective_pairing.
Qed.

(* The client's request is a key-exchange request with exactly its lists. *)
Theorem C28_client_request : forall protos algs denied t,
  Forall utf8_ok denied -> zlen (client_request protos algs denied) <= 4096 ->
  parse_request (client_request protos algs denied ++ t) = (Ok (KeyExchange algs protos denied), t).
Proof. intros protos algs denied t U L. apply request_roundtrip; assumption. Qed.

(* Client and server over one session (one exporter), for every cookie codec
   with the C26 round trip (enc/dec: the key set's encode/decode with the i-th
   nonce): if the exchange succeeds the client has adopted the server's choice,
   holds the exported keys for it, and its eight cookies decode to exactly
   those keys.  Hypotheses: the configured server name is valid UTF-8 (it is a
   String), the response fits the 4096-byte cap. *)
Theorem C28_same_keys : forall (enc_cookie : nat -> Z -> list Z -> list Z -> list Z)
    (dec_cookie : list Z -> option (Z * list Z * list Z)),
  (forall i a c s, dec_cookie (enc_cookie i a c s) = Some (a, c, s)) ->
  forall cfg export protos algs denied name k resp e asked,
  (forall n, c_server cfg = Some n -> utf8_ok n) ->
  handle_new cfg export false (Ok (KeyExchange algs protos denied)) = (resp, e, asked) ->
  zlen (wire enc_cookie resp) <= 4096 ->
  client_process protos algs export name (wire enc_cookie resp) = Ok k ->
  first_such (accepts cfg) protos (k_protocol k) /\ first_such known_algorithm algs (k_algorithm k)
  /\ (k_c2s k, k_s2c k) = export (k_protocol k) (k_algorithm k)
  /\ length (k_cookies k) = 8%nat
  /\ (forall ck, In ck (k_cookies k) -> dec_cookie ck = Some (k_algorithm k, k_c2s k, k_s2c k))
  /\ e = Closed 0.
Proof.
  intros enc_cookie dec_cookie dec_enc cfg export protos algs denied name k resp e asked Us H L C.
  destruct (client_process_inv _ _ _ _ _ _ C) as (r & v & PR & _ & _ & _ & _ & _ & ->).
  cbn [k_protocol k_algorithm k_c2s k_s2c k_cookies]. clear C.
  destruct (handle_new_ke cfg export false algs protos denied) as [(p & a & Fp & Fa & E)|[E|(p & E)]];
    rewrite E in H; injection H as <- <- <-.
  - destruct (export p a) as [c2s s2c] eqn:X. cbn [fst snd] in PR, L.
    rewrite (wire_ke_response enc_cookie) in PR, L.
    set (R := mkResp p a (cookie_bytes enc_cookie 0 n_cookies a c2s s2c) (c_server cfg) (c_port cfg) false) in *.
    assert (W : wf_response R).
    { split; [exact Us|]. cbn [p_cookies R]. unfold zlen. rewrite (cookie_bytes_length enc_cookie). reflexivity. }
    rewrite <- (app_nil_r (ser_response R)), (response_roundtrip R [] W L) in PR. injection PR as <-.
    cbn [p_protocol p_algorithm p_cookies R]. rewrite X. cbn [fst snd].
    repeat split; try assumption. apply (cookie_bytes_dec enc_cookie dec_cookie dec_enc).
  - exfalso. revert PR.
    replace (fst (parse_response (wire enc_cookie [RRec (NextProtocolR []); RRec EndOfMessage])))
      with (@Err response E_NO_PROTOCOL); [discriminate|].
    vm_compute. reflexivity.
  - exfalso. revert PR.
    replace (fst (parse_response (wire enc_cookie [RRec (NextProtocolR [p]); RRec (AeadAlgorithmR []); RRec EndOfMessage])))
      with (@Err response E_NO_ALGORITHM); [discriminate|].
    unfold wire. cbn [realize concat app]. vm_compute. reflexivity.
Qed.

(* the decision sites of nts/mod.rs the model mirrors are the ones counted in the sources:
   two token tests, one `find` over the protocols, one over the algorithms, eight cookies *)
Theorem C28_site_census :
  TOKEN_TESTS = 2 /\ PROTOCOL_FIND = 1 /\ ALGORITHM_FIND = 1 /\ DEFAULT_NUMBER_OF_COOKIES = 8.
Proof. exact ntske_census. Qed.

(* non-vacuity: a server accepting only NTPv4 picks NTPv4 from [NTPv5; NTPv4]
   and the first known algorithm from [99; 17; 15]; a client that offered only
   NTPv4 accepts a response naming NTPv4 and rejects one naming NTPv5 *)
Definition ex_export : export_t := fun p a => ([p; a; 0], [p; a; 1]).
Definition ex_resp (p : Z) : list Z :=
  [128;1;0;2] ++ be16 p ++ [128;4;0;2;0;15; 0;5;0;1;7; 128;0;0;0].
Example C28_nonvacuous :
  (let '(resp, e, _) := handle_new (mkCfg [0] [] None None) ex_export false (Ok (KeyExchange [99; 17; 15] [32769; 0] [])) in
   (firstn 3 resp, e)) = ([RRec (NextProtocolR [0]); RRec (AeadAlgorithmR [17]); RCookie 17 [0; 17; 0] [0; 17; 1]], Closed 0)
  /\ client_process [0] [17; 15] ex_export [120] (ex_resp 0) = Ok (mkKex 4 0 15 123 [120] [0; 15; 0] [0; 15; 1] [[7]])
  /\ client_process [0] [17; 15] ex_export [120] (ex_resp 32769) = Err E_INVALID
  /\ client_process [32769; 0] [17; 15] ex_export [120] (ex_resp 32769) = Ok (mkKex 5 32769 15 123 [120] [32769; 15; 0] [32769; 15; 1] [[7]]).
Proof. vm_compute. repeat split. Qed.

Print Assumptions C28_server_choice.
Print Assumptions C28_accepts_supported.
Print Assumptions C28_server_cookies.
Print Assumptions C28_client_offered.
Print Assumptions C28_client_request.
Print Assumptions C28_same_keys.
Print Assumptions C28_site_census.
