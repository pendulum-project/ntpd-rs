(* C20  Rate limiting answers to the client's own request rate.
   The lemmas about the cache and about Server::handle are in Proofs/RateCache.v and Proofs/Server.v.

   Vocabulary (Model/RateCache.v, Model/Server.v):
   - a history is a list of calls (address, instant); [h] is the cache's hash function
     (std RandomState: arbitrary, universally quantified), [n] the configured cache size,
     [cutoff] the configured cutoff; [slot_of h n a = h a mod n];
   - [dur_since t t'] = max 0 (t - t'), the saturating Instant::duration_since;
   - [refused h n cutoff pre a t post]: in the history pre ++ (a,t) :: post, run from the
     empty cache, the call (a,t) gets the verdict "not allowed";
   - [last_on_slot h n s pre]: the most recent call of [pre] whose address hashes to slot s. *)
From V Require Import Model.Server Proofs.RateCache Proofs.Server.
From V Require Import Gen.ConstServer.

(* Every history runs without panic and yields one verdict per call
   (the only indexing, `elements[index]`, is in range because index = hash mod len). *)
Theorem C20_total : forall h n cutoff calls,
  exists vs, verdicts h n cutoff calls = Ok vs /\ length vs = length calls.
Proof.
  intros h n cutoff calls. unfold verdicts. destruct (Z_lt_le_dec 0 n) as [Hn|Hn].
  - destruct (run_holds_last h n cutoff calls Hn) as (c & bs & Hrun & _ & Hlen & _).
    rewrite Hrun. cbn. eauto.
  - rewrite (new_cache_nonpos n Hn), run_empty. cbn. eexists; split; [reflexivity|apply map_length].
Qed.

(* Exact characterisation, for every history, hash function, size and cutoff:
   a call is refused iff the cache is enabled and the most recent earlier call on the same
   slot was made by the same address less than the cutoff before.  (Every call, refused
   or not, overwrites its slot.) *)
Theorem C20_refused_iff : forall h n cutoff pre a t post,
  refused h n cutoff pre a t post <->
  (0 < n /\ exists t', last_on_slot h n (slot_of h n a) pre = Some (a, t') /\ dur_since t t' < cutoff).
Proof.
  intros h n cutoff pre a t post. unfold refused, verdicts. destruct (Z_lt_le_dec 0 n) as [Hn|Hn].
  - destruct (run_holds_last h n cutoff (pre ++ (a, t) :: post) Hn) as (c & bs & Hrun & _ & _ & Hv).
    rewrite Hrun. cbn [res_bind snd]. specialize (Hv pre a t post eq_refl).
    rewrite <- verdict_spec_false_iff. split.
    + intros (vs & E & Hnth). inversion E; subst vs. rewrite Hv in Hnth. inversion Hnth. auto.
    + intros (_ & Hs). exists bs. rewrite Hv, Hs. auto.
  - rewrite (new_cache_nonpos n Hn), run_empty. cbn [res_bind snd]. split.
    + intros (vs & E & Hnth). inversion E; subst vs.
      rewrite nth_error_map in Hnth.
      destruct (nth_error (pre ++ (a, t) :: post) (length pre)); discriminate.
    + intros (H & _). lia.
Qed.

(* A client is never rate-limited unless its own previous request (the most recent earlier
   call from the same address) was within the cutoff. *)
Theorem C20_own_rate_only : forall h n cutoff pre a t post,
  refused h n cutoff pre a t post ->
  exists p1 t' p2, pre = p1 ++ (a, t') :: p2
                   /\ (forall y, In y p2 -> fst y <> a)
                   /\ dur_since t t' < cutoff.
Proof.
  intros h n cutoff pre a t post H. apply C20_refused_iff in H. destruct H as (Hn & t' & Hl & Hd).
  destruct (last_on_slot_split _ _ _ _ _ Hl) as (p1 & p2 & E & _ & Hno).
  exists p1, t', p2. repeat split; [exact E| |exact Hd].
  intros y Hy Heq. apply (Hno y Hy). cbn [fst]. rewrite Heq. reflexivity.
Qed.

(* A client that called less than the cutoff ago from the same address, with no other
   address using the same slot in between (its own intermediate calls, at instants not
   before that call, are allowed), is refused. *)
Theorem C20_must_limit : forall h n cutoff p1 a t' p2 t post,
  0 < n ->
  dur_since t t' < cutoff ->
  (forall y, In y p2 -> slot_of h n (fst y) = slot_of h n a -> fst y = a /\ t' <= snd y) ->
  refused h n cutoff (p1 ++ (a, t') :: p2) a t post.
Proof.
  intros h n cutoff p1 a t' p2 t post Hn Hd Hbetween. apply C20_refused_iff. split; [exact Hn|].
  (* the last call on a's slot is the last call by a in (a,t') :: p2 *)
  assert (G : forall q, (forall y, In y q -> slot_of h n (fst y) = slot_of h n a -> fst y = a /\ t' <= snd y) ->
              exists t'', last_on_slot h n (slot_of h n a) (p1 ++ (a, t') :: q) = Some (a, t'') /\ t' <= t'').
  { induction q as [|y q IH] using rev_ind; intros Hq.
    - exists t'. split; [|lia]. apply last_on_slot_intro; [reflexivity|]. intros y [].
    - rewrite app_comm_cons, app_assoc, last_on_slot_snoc.
      destruct (slot_of h n (fst y) =? slot_of h n a) eqn:E.
      + apply Z.eqb_eq in E. destruct (Hq y) as [Hy1 Hy2]; [apply in_or_app; right; left; reflexivity|exact E|].
        destruct y as [ya yt]. cbn [fst snd] in *. subst ya. exists yt. split; [reflexivity|exact Hy2].
      + apply IH. intros z Hz. apply Hq. apply in_or_app. left. exact Hz. }
  destruct (G p2 Hbetween) as (t'' & Hl & Hle).
  exists t''. split; [exact Hl|]. unfold dur_since in *. lia.
Qed.

(* With the cache size set to zero no call is ever refused. *)
Theorem C20_size_zero : forall h n cutoff calls,
  n <= 0 -> verdicts h n cutoff calls = Ok (map (fun _ => true) calls).
Proof. intros h n cutoff calls Hn. unfold verdicts. rewrite (new_cache_nonpos n Hn), run_empty. reflexivity. Qed.

(* Position of the rate limit in the server's policy (decision model of Server::handle):
   a datagram from an address on the deny list or not on the allow list leaves the cache
   untouched and is never registered as rate-limited ... *)
Theorem C20_position_lists_first : forall h cfg c e rq r,
  passes e = false -> handle h cfg c e rq = Ok r ->
  o_cache r = c /\ rate_refused r = false.
Proof. exact cache_untouched. Qed.

(* ... a datagram that passes both lists makes exactly one `is_allowed` call, whatever the
   datagram contains (even if it is malformed); it is registered as rate-limited iff that
   call said no, and then nothing is sent. *)
Theorem C20_position : forall h cfg c e rq r,
  passes e = true -> handle h cfg c e rq = Ok r ->
  exists b, is_allowed h c (e_addr e) (e_now e) (c_cutoff cfg) = Ok (o_cache r, b)
            /\ b = negb (rate_refused r)
            /\ (b = false -> o_out r = OIgnore /\ o_regs r = [(r_fbv rq, false, RateLimit, RIgnore)]).
Proof. exact cache_consulted. Qed.

(* Hence, over any history of datagrams through one server, the cache sees exactly the
   sub-history of list-passing datagrams ... *)
Theorem C20_position_history : forall h cfg l c c' rs,
  handle_all h cfg c l = Ok (c', rs) ->
  length rs = length l /\
  run_from h (c_cutoff cfg) c (map call_of (passing l)) = Ok (c', passing_verdicts l rs).
Proof. intros h cfg l. exact (position_history h cfg l). Qed.

(* ... and the server-level statement of the property: a list-passing datagram is
   rate-limited iff the most recent earlier list-passing datagram on its slot came from
   the same address less than the cutoff before. *)
Theorem C20_server_refused_iff : forall h cfg n pre e rq post c' rs r,
  handle_all h cfg (new_cache n) (pre ++ (e, rq) :: post) = Ok (c', rs) ->
  passes e = true ->
  nth_error rs (length pre) = Some r ->
  (rate_refused r = true <->
   0 < n /\ exists t', last_on_slot h n (slot_of h n (e_addr e)) (map call_of (passing pre)) = Some (e_addr e, t')
                       /\ dur_since (e_now e) t' < c_cutoff cfg).
Proof.
  intros h cfg n pre e rq post c' rs r H Hp Hn.
  destruct (handle_all_app _ _ _ _ _ _ _ H) as (c1 & rs1 & rs2 & H1 & H2 & ->).
  pose proof (handle_all_length _ _ _ _ _ _ H1) as Hl.
  destruct (handle_all_cons _ _ _ _ _ _ _ _ H2) as (r0 & rs3 & Hh & _ & ->).
  rewrite nth_error_app2 in Hn by lia. rewrite Hl, Nat.sub_diag in Hn. cbn in Hn. inversion Hn; subst r0. clear Hn.
  destruct (position_history _ _ _ _ _ _ H1) as (_ & Hrun).
  destruct (cache_consulted _ _ _ _ _ _ Hp Hh) as (b & Hal & Hb & _).
  destruct (Z_lt_le_dec 0 n) as [Hpos|Hneg].
  - destruct (run_holds_last h n (c_cutoff cfg) (map call_of (passing pre)) Hpos) as (cc & bs & Hrun' & Hinv & _).
    rewrite Hrun in Hrun'. inversion Hrun'; subst cc. 
    destruct (is_allowed_holds_last h n (c_cutoff cfg) c1 _ (e_addr e) (e_now e) Hpos Hinv) as (c'' & Hal' & _).
    rewrite Hal in Hal'. inversion Hal' as [[Hc Hbv]].
    rewrite <- verdict_spec_false_iff, <- Hbv, Hb.
    destruct (rate_refused r); cbn; split; try discriminate; [auto|reflexivity|intros (_ & Hf); discriminate Hf].
  - rewrite (new_cache_nonpos n Hneg), run_empty in Hrun. inversion Hrun; subst c1.
    cbn in Hal. inversion Hal; subst b. 
    destruct (rate_refused r); [discriminate|]. split; [discriminate|]. intros (? & _). lia.
Qed.

(* non-vacuity: 2 slots, addresses 1 and 3 share slot 1, address 2 has slot 0, cutoff 10:
   the second call of 1 (5 later) is refused, its third call (exactly 10 after the second) is
   allowed, then 3 evicts 1, so 1's next call is allowed although only 2 after its previous one,
   and its call 1 later is refused again. *)
Example C20_nonvacuous :
  verdicts (fun a => a) 2 10 [(1, 0); (1, 5); (1, 15); (2, 15); (3, 16); (1, 17); (1, 18)]
    = Ok [true; false; true; true; true; true; false]
  /\ refused (fun a => a) 2 10 [(1, 0)] 1 5 []
  /\ verdicts (fun a => a) 0 10 [(1, 0); (1, 0)] = Ok [true; true].
Proof.
  split; [vm_compute; reflexivity|]. split; [|vm_compute; reflexivity].
  exists [true; false]. split; vm_compute; reflexivity.
Qed.

(* census, regenerated from the sources on every run: one call of intended_action per datagram, one call of
   is_allowed (in its third branch), the slot is read and written once each, one `% len`. *)
Example C20_site_census :
  SRV_INTENDED_ACTION_CALLS = 1 /\ SRV_IS_ALLOWED_CALLS = 1 /\ SRV_CACHE_INDEXING = 2 /\ SRV_MODULO = 1.
Proof. repeat split; reflexivity. Qed.

Print Assumptions C20_total.
Print Assumptions C20_refused_iff.
Print Assumptions C20_own_rate_only.
Print Assumptions C20_must_limit.
Print Assumptions C20_size_zero.
Print Assumptions C20_position_lists_first.
Print Assumptions C20_position.
Print Assumptions C20_position_history.
Print Assumptions C20_server_refused_iff.
