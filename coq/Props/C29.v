(* C29  Pool key-exchange requests require a configured token.
   Property theorems; the lemmas they rest on are in Proofs/NtsKe.v.

   handle_new cfg export permit pr  models KeyExchangeServer::handle_connection
   after the TLS accept: pr is the outcome of Request::parse (model of C30),
   permit whether a long-lived connection slot is available; the result is
   (records written to the client, how the connection ends, whether the permit
   was asked for).  lt_step / longterm model handle_longterm. *)
From V Require Import Model.NtsKe Proofs.NtsKe Gen.ConstNts.

(* A fixed-key or supported-parameters request whose token is not configured
   is answered with exactly [Error(BadRequest); EndOfMessage], the connection is
   closed with NotPermitted and the permit is not even asked for ... *)
Theorem C29_token_required : forall cfg export permit q auth,
  req_auth q = Some auth -> ~ In auth (c_tokens cfg) ->
  handle_new cfg export permit (Ok q) = (bad_request, Closed E_NOT_PERMITTED, false).
Proof. exact token_required. Qed.

(* ... and that answer carries no cookie and no keep-alive record. *)
Theorem C29_rejection_shape :
  bad_request = [RRec (ErrorR ERR_BAD_REQUEST); RRec EndOfMessage]
  /\ existsb is_cookie bad_request = false /\ existsb is_keep_alive bad_request = false.
Proof. repeat split; reflexivity. Qed.

(* Served only with a configured token: for every such request, either its token
   is configured or the outcome is the rejection. *)
Theorem C29_served_only_with_token : forall cfg export permit q auth,
  req_auth q = Some auth ->
  In auth (c_tokens cfg) \/
  handle_new cfg export permit (Ok q) = (bad_request, Closed E_NOT_PERMITTED, false).
Proof.
  intros cfg export permit q auth A. destruct (token_ok cfg auth) eqn:T.
  - left. apply token_ok_in. exact T.
  - right. apply (token_required cfg export permit q auth A). intros H. apply token_ok_in in H. congruence.
Qed.

(* The same on the byte stream of a whole connection. *)
Theorem C29_connection_without_token : forall cfg export permit stream q rest auth,
  parse_request stream = (Ok q, rest) -> req_auth q = Some auth -> ~ In auth (c_tokens cfg) ->
  serve cfg export permit stream = (bad_request, Closed E_NOT_PERMITTED, false, None).
Proof.
  intros cfg export permit stream q rest auth P A N.
  unfold serve. rewrite P, (token_required cfg export permit q auth A N). reflexivity.
Qed.

(* For EVERY outcome of the request parser: the connection is kept open iff the
   request is a pool request with a configured token that asked for keep-alive
   and a slot was available; the slot is asked for iff token and wish are
   there; the response carries a keep-alive record iff the connection is kept. *)
Theorem C29_kept_open_iff : forall cfg export permit pr resp e asked,
  handle_new cfg export permit pr = (resp, e, asked) ->
  (e = KeptOpen <->
     exists q auth, pr = Ok q /\ req_auth q = Some auth /\ In auth (c_tokens cfg)
                    /\ req_keep_alive q = true /\ permit = true)
  /\ (asked = true <->
     exists q auth, pr = Ok q /\ req_auth q = Some auth /\ In auth (c_tokens cfg)
                    /\ req_keep_alive q = true)
  /\ (existsb is_keep_alive resp = true <-> e = KeptOpen).
Proof.
  intros cfg export permit pr resp e asked H. destruct (pool_classify cfg pr) as [[q [auth [E [A T]]]]|N].
  - subst pr. destruct (kept_open_pool cfg export permit q auth A T) as [resp' [H' K]].
    rewrite H in H'. inversion H'. subst resp' e asked. clear H'.
    split; [|split].
    + split.
      * intros Ek. exists q, auth. destruct (req_keep_alive q), permit; cbn in Ek; try discriminate. repeat split; assumption.
      * intros [q' [au [E' [_ [_ [Kq P]]]]]]. inversion E'. subst q'. rewrite Kq, P. reflexivity.
    + split.
      * intros Ek. exists q, auth. repeat split; assumption.
      * intros [q' [au [E' [_ [_ Kq]]]]]. inversion E'. subst q'. exact Kq.
    + rewrite K. destruct (req_keep_alive q && permit); split; intros; try reflexivity; discriminate.
  - destruct (closed_otherwise cfg export permit pr N) as [resp' [c [H' K]]].
    rewrite H in H'. inversion H'. subst resp' e asked. clear H'.
    split; [|split].
    + split; [discriminate|]. intros [q [au [E [A [T _]]]]]. exfalso. apply (N q au E A T).
    + split; [discriminate|]. intros [q [au [E [A [T _]]]]]. exfalso. apply (N q au E A T).
    + rewrite K. split; discriminate.
Qed.

(* A plain key-exchange request on a kept-open connection: bad request, and
   handle_longterm ends with Invalid (for every configuration) ... *)
Theorem C29_no_plain_on_longterm : forall cfg als ps dn,
  lt_step cfg (Ok (KeyExchange als ps dn)) = (bad_request, Some E_INVALID).
Proof. reflexivity. Qed.

(* ... also as the first thing read from the kept-open stream. *)
Theorem C29_no_plain_on_longterm_stream : forall f cfg stream als ps dn rest,
  parse_request stream = (Ok (KeyExchange als ps dn), rest) ->
  longterm (S f) cfg stream = (bad_request, E_INVALID).
Proof. intros f cfg stream als ps dn rest H. cbn [longterm]. rewrite H. reflexivity. Qed.

(* the decision sites of nts/mod.rs the model mirrors are the ones counted in the sources:
   two token tests, one `find` over the protocols, one over the algorithms, eight cookies *)
Theorem C29_site_census :
  TOKEN_TESTS = 2 /\ PROTOCOL_FIND = 1 /\ ALGORITHM_FIND = 1 /\ DEFAULT_NUMBER_OF_COOKIES = 8.
Proof. exact ntske_census. Qed.

(* non-vacuity: with token "hi" configured, a fixed-key request carrying it and
   asking for keep-alive is kept open when a slot is available, closed (but
   served) when not; with another token it is rejected; a following plain
   key exchange on the kept connection is refused *)
Definition ex_fk (tok : list Z) : list Z :=
  [0;14;0;2] ++ tok ++ [128;12;0;64] ++ repeat 7 64 ++ [128;1;0;2;0;0; 128;4;0;2;0;15; 0;8;0;0; 128;0;0;0].
Definition ex_ke : list Z := [128;1;0;2;0;0; 128;4;0;2;0;15; 128;0;0;0].
Definition ex_cfg : srv_cfg := mkCfg [0] [[104;105]] None None.
Example C29_nonvacuous :
  (let '(resp, e, asked, lt) := serve ex_cfg (fun _ _ => ([], [])) true (ex_fk [104;105] ++ ex_ke) in
   (e, asked, lt, existsb is_keep_alive resp, length (filter is_cookie resp)))
    = (KeptOpen, true, Some E_INVALID, true, 8%nat)
  /\ (let '(resp, e, asked, lt) := serve ex_cfg (fun _ _ => ([], [])) false (ex_fk [104;105] ++ ex_ke) in
   (e, asked, lt, existsb is_keep_alive resp, length (filter is_cookie resp)))
    = (Closed 0, true, None, false, 8%nat)
  /\ serve ex_cfg (fun _ _ => ([], [])) true (ex_fk [104;111] ++ ex_ke)
    = (bad_request, Closed E_NOT_PERMITTED, false, None).
Proof. vm_compute. repeat split. Qed.

Print Assumptions C29_token_required.
Print Assumptions C29_rejection_shape.
Print Assumptions C29_served_only_with_token.
Print Assumptions C29_connection_without_token.
Print Assumptions C29_kept_open_iff.
Print Assumptions C29_no_plain_on_longterm.
Print Assumptions C29_no_plain_on_longterm_stream.
Print Assumptions C29_site_census.
