(* C07  NTS sources ignore everything that is not authenticated.
   The lemmas behind the theorems are in Proofs/SourceIncoming.v, Proofs/SourceVersion.v.

   A received datagram reaches the decision logic as [None] (rejected by the
   decoder; this includes every datagram with a present but failing NTS
   authenticator, which NtpPacket::deserialize reports as DecryptError) or as
   [Some p]; [authenticated p] says that an authenticator decrypted under the
   session's server-to-client key, and only then can [p] have unique identifiers
   or cookies in authenticated / encrypted position (cluster P: C25).
   [uid_bound p id]: the unique identifier of request [id] is present under the
   authenticator and no identifier under it differs.  The statements are about
   the tree with branch fix-c07 (NTS NAK tested before RATE / DENY). *)
From V Require Import Model.Source Proofs.SourceBase Proofs.SourceIncoming Proofs.SourceVersion.

(* Whatever has any observable effect on an NTS source -- an action (measurement,
   demobilisation) or any change of the modelled state (cookies, poll rate,
   protocol version, reachability, deny memory, pending request) -- is an
   authenticated packet bound to the pending request: inside the window, origin
   timestamp / client cookie and unique identifier of that request, and it is
   not an NTS NAK. *)
Theorem C07_effect_only_if : forall c s now op s' acts,
  s_nts s = true -> nts_ver_ok s ->
  step_incoming c s now op = (s', acts) -> (s' <> s \/ acts <> []) ->
  exists p id dl, op = Some p /\ authenticated p = true
    /\ s_req s = Some (id, dl) /\ now <= dl
    /\ expected (s_ver s) (p_ver p) = true
    /\ p_origin p = id /\ uid_bound p id /\ is_kiss_ntsn p = false.
Proof.
  intros c s now op s' acts N W H Eff.
  destruct (nts_incoming c s now op N W) as [X|X]; [|exact X].
  rewrite X in H. injection H as <- <-. destruct Eff; congruence.
Qed.

(* no authenticator (forged, unauthenticated kiss codes including NTS NAKs with the
   cleartext identifiers of the request): nothing happens *)
Theorem C07_unauth_noop : forall c s now p,
  s_nts s = true -> nts_ver_ok s -> authenticated p = false ->
  step_incoming c s now (Some p) = (s, []).
Proof.
  intros c s now p N W A.
  destruct (nts_incoming c s now (Some p) N W) as [X|(p' & id & dl & Ep & A' & _)]; [exact X|].
  injection Ep as <-. congruence.
Qed.

(* failing authenticator (bit flips, other keys, replays re-encrypted): decoder error, nothing happens *)
Theorem C07_rejected_noop : forall c s now, step_incoming c s now None = (s, []).
Proof. reflexivity. Qed.

(* authenticated but not bound to the pending request (replay of an answer to an
   earlier request, other origin, identifier missing or only outside the authenticator) *)
Theorem C07_bound_to_request : forall c s now p,
  s_nts s = true -> nts_ver_ok s ->
  (forall id dl, s_req s = Some (id, dl) -> now <= dl -> ~ (p_origin p = id /\ uid_bound p id)) ->
  step_incoming c s now (Some p) = (s, []).
Proof.
  intros c s now p N W U.
  destruct (nts_incoming c s now (Some p) N W) as [X|(p' & id & dl & Ep & _ & R & D & _ & O & B & _)];
    [exact X|].
  injection Ep as <-. destruct (U id dl R D). auto.
Qed.

(* New cookies are only ever taken from the encrypted part of an accepted answer:
   handle_incoming leaves the stash alone or stores exactly the encrypted-position
   cookies of the packet it measured (whatever cookies sit in authenticated or
   untrusted position) ... *)
Theorem C07_cookies_only_encrypted : forall c s now op s' acts,
  step_incoming c s now op = (s', acts) ->
  s_stash s' = s_stash s \/
  exists p id, op = Some p /\ acts = [Measure id] /\ s_nts s = true /\
    s_stash s' = fold_left stash_store (cookies_encr p) (s_stash s).
Proof. exact incoming_stash. Qed.

(* ... so along every history, every cookie in the stash was there initially or
   came in encrypted position of some received packet (an unauthenticated packet
   has none) *)
Theorem C07_stash_provenance : forall c evs s s' tr x,
  run c s evs = Ok (s', tr) -> In x (s_stash s') -> In x (s_stash s) \/ In x (offered evs).
Proof.
  intros c. induction evs as [|e evs IH]; intros s s' tr x H I.
  - injection H as <- <-. auto.
  - apply run_cons in H. destruct H as (s1 & a & tr' & H1 & H2 & ->).
    destruct (IH _ _ _ _ H2 I) as [J|J].
    + destruct e as [now d|now op]; simpl in H1.
      * left. eapply timer_stash; eauto.
      * injection H1 as H1. apply incoming_stash in H1.
        destruct H1 as [E|(p & id & -> & _ & _ & E)]; rewrite E in J; auto.
        apply fold_store_in in J. destruct J as [J|J]; auto.
        right. simpl. apply in_or_app. auto.
    + right. simpl. apply in_or_app. auto.
Qed.

(* a packet without a decrypted authenticator has no cookie in encrypted position *)
Theorem C07_unauth_offers_nothing : forall p, authenticated p = false -> cookies_encr p = [].
Proof. intros p. unfold authenticated, cookies_encr. destruct (p_sealed p); auto; discriminate. Qed.

(* the hypothesis [nts_ver_ok] (version V4 or V5, as negotiated by key exchange) is an invariant *)
Theorem C07_nts_version_invariant : forall c evs s s' tr,
  nts_ver_ok s -> s_nts s = true -> run c s evs = Ok (s', tr) -> s_ver s' = s_ver s /\ nts_ver_ok s'.
Proof. exact nts_version. Qed.

(* non-vacuity: NTPv5 NTS source with a pending request; the unauthenticated NAK+DENY
   and NAK+RATE packets of DESIGN.md section 4 row 2 (cleartext identifier and client
   cookie of the request) do nothing, a genuine answer is measured and its two
   encrypted cookies -- not the ones planted in authenticated / untrusted position -- are stored *)
Example C07_nonvacuous :
  let c := mkCfg 4 10 in
  let s0 := init c true [(7, 100); (8, 100)] V5 in
  let nak poll := Some (mkPkt 5 4 0 poll 0 true 0 false None [0] []) in
  let good := Some (mkPkt 5 4 2 4 0 false 0 false
                      (Some (mkSealed [0] [] [(21, 64); (22, 64)] [(66, 64)])) [] [(77, 64)]) in
  exists s1 a1, step c s0 (Timer 0 4) = Ok (s1, a1) /\ s_req s1 = Some (0, 5000)
  /\ step_incoming c s1 10 (nak 127) = (s1, [])
  /\ step_incoming c s1 10 (nak 20) = (s1, [])
  /\ exists s2, step_incoming c s1 10 good = (s2, [Measure 0])
       /\ s_stash s2 = [(8, 100); (21, 64); (22, 64)].
Proof. vm_compute. eexists. eexists. repeat split. eexists. split; reflexivity. Qed.

Print Assumptions C07_effect_only_if.
Print Assumptions C07_unauth_noop.
Print Assumptions C07_rejected_noop.
Print Assumptions C07_bound_to_request.
Print Assumptions C07_cookies_only_encrypted.
Print Assumptions C07_stash_provenance.
Print Assumptions C07_unauth_offers_nothing.
Print Assumptions C07_nts_version_invariant.
