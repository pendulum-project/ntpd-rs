(* C05  Offset and delay follow the NTP on-wire formulas.
   Property theorems; the lemmas behind them are in Proofs/Measure.v and Proofs/TimeTypes.v.

   Conventions.  t1..t4 : Z are the TRUE instants (unbounded, in units of
   2^-32 s since some origin): client send, server receive, server transmit,
   client receive.  What the code sees are the 64-bit NTP timestamps
   Ti = ti mod 2^64 (era number lost).  [in_i64 x] (-2^63 <= x < 2^63) is
   "x is representable in the 64-bit duration type".  Reading of the
   statement's "whenever the true differences are representable" (DESIGN.md
   section 5): the two differences and their combination are representable;
   otherwise the documented saturation applies (C05_saturation).  The
   halving truncates toward zero (C05_halving). *)
From V Require Import Model.Measure Proofs.TimeTypes Proofs.Measure.

(* era safety of a single timestamp difference *)
Theorem C05_era : forall ta tb,
  in_i64 (ta - tb) -> tsub (ta mod 2 ^ 64) (tb mod 2 ^ 64) = ta - tb.
Proof. exact tsub_era. Qed.

(* what one accepted server response makes the wrapper hand to the clock
   filter (the inner source controller): from ANY prior wrapper state [s]
   (so for every exchange of every history), exactly one measurement, whose
   offset is ((t2-t1)+(t3-t4))/2, whose delay is (t4-t1)-(t3-t2) and whose
   local time is T4.  [exchange_meas id T1 T2 T3 T4] is
   measurements_from_packet with send_time = T1, the packet's receive
   timestamp = T2, the packet's transmit timestamp = T3, recv_time = T4
   (the wiring of the four fields), fed outgoing first as process_message does. *)
Theorem C05_exchange : forall s id t1 t2 t3 t4,
  id <> clock_system ->
  in_i64 (t2 - t1) -> in_i64 (t3 - t4) -> in_i64 ((t2 - t1) + (t3 - t4)) ->
  in_i64 (t4 - t1) -> in_i64 (t3 - t2) -> in_i64 ((t4 - t1) - (t3 - t2)) ->
  twoway_run s (exchange_meas id (t1 mod 2 ^ 64) (t2 mod 2 ^ 64) (t3 mod 2 ^ 64) (t4 mod 2 ^ 64)) =
  Ok [mkIMeas (Some ((t4 - t1) - (t3 - t2))) (Z.quot ((t2 - t1) + (t3 - t4)) 2) (t4 mod 2 ^ 64)].
Proof.
  intros. rewrite twoway_exchange by assumption.
  rewrite wire_offset_exact, wire_delay_exact by assumption. reflexivity.
Qed.

(* offset and delay separately, each under its own representability hypotheses *)
Theorem C05_offset : forall t1 t2 t3 t4,
  in_i64 (t2 - t1) -> in_i64 (t3 - t4) -> in_i64 ((t2 - t1) + (t3 - t4)) ->
  wire_offset (t1 mod 2 ^ 64) (t2 mod 2 ^ 64) (t3 mod 2 ^ 64) (t4 mod 2 ^ 64)
  = Z.quot ((t2 - t1) + (t3 - t4)) 2.
Proof. exact wire_offset_exact. Qed.

(* the round-trip delay: total time minus the server's processing time *)
Theorem C05_delay : forall t1 t2 t3 t4,
  in_i64 (t4 - t1) -> in_i64 (t3 - t2) -> in_i64 ((t4 - t1) - (t3 - t2)) ->
  wire_delay (t1 mod 2 ^ 64) (t2 mod 2 ^ 64) (t3 mod 2 ^ 64) (t4 mod 2 ^ 64)
  = (t4 - t1) - (t3 - t2).
Proof. exact wire_delay_exact. Qed.

(* every exchange of every history of one source: the delivered measurements
   are, one per exchange and in order, the wire_delay / wire_offset of that
   exchange's own four timestamps (no leakage between exchanges), for all
   64-bit timestamp quadruples without any representability hypothesis *)
Theorem C05_history : forall id exs s,
  id <> clock_system ->
  twoway_run s (flat_map (fun e => exchange_meas id (ex_t1 e) (ex_t2 e) (ex_t3 e) (ex_t4 e)) exs)
  = Ok (map exchange_result exs).
Proof.
  intros id exs. induction exs as [|e exs IH]; intros s Hid; [reflexivity|].
  cbn [flat_map map]. rewrite twoway_exchange_step by assumption.
  rewrite IH by assumption. reflexivity.
Qed.

(* outside the representable combination: saturation with the sign of the true value *)
Theorem C05_saturation : forall t1 t2 t3 t4,
  (in_i64 (t2 - t1) -> in_i64 (t3 - t4) ->
     ((t2 - t1) + (t3 - t4) >= 2 ^ 63 ->
        wire_offset (t1 mod 2 ^ 64) (t2 mod 2 ^ 64) (t3 mod 2 ^ 64) (t4 mod 2 ^ 64) = Z.quot (2 ^ 63 - 1) 2) /\
     ((t2 - t1) + (t3 - t4) < - 2 ^ 63 ->
        wire_offset (t1 mod 2 ^ 64) (t2 mod 2 ^ 64) (t3 mod 2 ^ 64) (t4 mod 2 ^ 64) = Z.quot (- 2 ^ 63) 2)) /\
  (in_i64 (t4 - t1) -> in_i64 (t3 - t2) ->
     ((t4 - t1) - (t3 - t2) >= 2 ^ 63 ->
        wire_delay (t1 mod 2 ^ 64) (t2 mod 2 ^ 64) (t3 mod 2 ^ 64) (t4 mod 2 ^ 64) = 2 ^ 63 - 1) /\
     ((t4 - t1) - (t3 - t2) < - 2 ^ 63 ->
        wire_delay (t1 mod 2 ^ 64) (t2 mod 2 ^ 64) (t3 mod 2 ^ 64) (t4 mod 2 ^ 64) = - 2 ^ 63)).
Proof.
  intros. split; intros H1 H2.
  - rewrite wire_offset_era by assumption.
    destruct (sat_i64_saturates (t2 - t1 + (t3 - t4))) as [_ [Hhi Hlo]].
    split; intro H; [rewrite Hhi|rewrite Hlo]; auto.
  - rewrite wire_delay_era by assumption.
    destruct (sat_i64_saturates (t4 - t1 - (t3 - t2))) as [_ [Hhi Hlo]].
    split; intro H; [rewrite Hhi|rewrite Hlo]; auto.
Qed.

(* the halving: truncation toward zero, at most one unit (2^-32 s) lost, exact on even sums *)
Theorem C05_halving : forall s,
  Z.abs (s - 2 * Z.quot s 2) <= 1 /\ Z.abs (2 * Z.quot s 2) <= Z.abs s /\
  (Z.even s = true -> 2 * Z.quot s 2 = s).
Proof.
  intro s. pose proof (Z.quot_rem s 2 ltac:(lia)) as Hq.
  pose proof (Z.rem_bound_abs s 2 ltac:(lia)).
  assert (Hsgn : 0 <= Z.rem s 2 * s) by (apply Z.rem_sign_mul; lia).
  repeat split; try nia.
  intro He. apply Z.even_spec in He. destruct He as [k ->].
  replace (2 * k) with (k * 2) by lia. rewrite Z.quot_mul by lia. lia.
Qed.

(* the wrapper cannot panic, for any sequence of measurements in any order *)
Theorem C05_no_panic : forall ms s, exists r, twoway_run s ms = Ok r.
Proof.
  induction ms as [|m ms IH]; intros s; [cbn; eauto|].
  cbn [twoway_run]. destruct (twoway_handle_no_panic s m) as [[s' o] ->].
  cbn [res_bind]. destruct (IH s') as [r ->]. cbn [res_bind]. eauto.
Qed.

(* one-way sources (GPSd, PPS): offset = remote (sender) time minus local
   (receiver) time, local time = receiver time *)
Theorem C05_oneway : forall ts tr id,
  in_i64 (ts - tr) ->
  oneway_handle (mkMeas id (ts mod 2 ^ 64) (tr mod 2 ^ 64)) = mkIMeas None (ts - tr) (tr mod 2 ^ 64).
Proof.
  intros. unfold oneway_handle. cbn [m_sender_ts m_receiver_ts].
  rewrite tsub_era by assumption. reflexivity.
Qed.

(* non-vacuity: an exchange across an era boundary (t1, t2 just before 2^64,
   t3, t4 just after), odd sum, negative offset, both true combinations representable;
   an offset that saturates at i64::MAX before the halving; a negative delay *)
Example C05_nonvacuous :
  let t1 := 2 ^ 64 - 1000 in let t2 := 2 ^ 64 - 1400 in
  let t3 := 2 ^ 64 + 99 in let t4 := 2 ^ 64 + 600 in
  twoway_run None (exchange_meas 7 (t1 mod 2 ^ 64) (t2 mod 2 ^ 64) (t3 mod 2 ^ 64) (t4 mod 2 ^ 64))
    = Ok [mkIMeas (Some 101) (-450) 600]
  /\ in_i64 ((t2 - t1) + (t3 - t4)) /\ in_i64 ((t4 - t1) - (t3 - t2))
  /\ wire_offset 0 (2 ^ 63 - 1) (2 ^ 63 - 1) 0 = 2 ^ 62 - 1
  /\ wire_delay (2 ^ 63) 0 0 (2 ^ 63 - 1) = -1.
Proof. vm_compute. repeat split; congruence. Qed.

Print Assumptions C05_era.
Print Assumptions C05_exchange.
Print Assumptions C05_offset.
Print Assumptions C05_delay.
Print Assumptions C05_history.
Print Assumptions C05_saturation.
Print Assumptions C05_halving.
Print Assumptions C05_no_panic.
Print Assumptions C05_oneway.
