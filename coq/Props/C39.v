(* C39  Configuration loading never crashes and rejects unsafe thresholds.
   "Loading any configuration text either fails with an error or yields a
    configuration; it never crashes the daemon or ntp-ctl validate.  Accepted
    step thresholds are never negative or NaN, in either the single-number or
    the per-direction form."
   Property theorems; their lemmas in Proofs/ConfigNum.v, model in
   Model/ConfigNum.v (the code in which the per-direction visitor validates
   like the single-number visitor).  The quantification is over every value a
   self-describing serde format can hand to the visitors (floats as arbitrary
   64-bit patterns, i64/u64 integers, strings, booleans, maps with arbitrary
   key sequences, sequences); the TOML/JSON text parsers are NOT modelled
   (partial: see C39_no_crash_partial). *)
From V Require Import Model.ConfigNum Proofs.ConfigNum Base.D3FloatFacts.

(* Single-number form: accepted only as the string "inf" (no limit) or as a
   number that is not NaN, not infinite and not below zero; both directions
   then carry its conversion. *)
Theorem C39_single_form : forall debug s st,
  step_threshold_of debug (TScalar s) = Ok st ->
  (s = SStr true /\ st_forward st = None /\ st_backward st = None) \/
  (exists f, number_of_scalar s = Some f /\
     (f64_is_nan f = false /\ f64_is_infinite f = false /\ f64_lt0 f = false) /\
     st_forward st = Some (from_seconds f) /\ st_backward st = Some (from_seconds f)).
Proof.
  intros debug s st. rewrite single_as_part.
  destruct (threshold_part debug (PScalar s)) as [o | |] eqn:P; try discriminate.
  intros [= <-]. destruct (threshold_part_ok _ _ _ P) as [[[= ->] ->] | (s' & f & [= <-] & N & G & ->)]; [left | right]; eauto.
Qed.

(* Per-direction form (and in fact every accepted threshold value, map or
   not): each direction is "no limit" or the conversion of a number that is
   not NaN, not infinite and not below zero. *)
Theorem C39_parts : forall debug v st,
  step_threshold_of debug v = Ok st ->
  (st_forward st = None \/ exists f, (f64_is_nan f = false /\ f64_is_infinite f = false /\ f64_lt0 f = false)
                                      /\ st_forward st = Some (from_seconds f)) /\
  (st_backward st = None \/ exists f, (f64_is_nan f = false /\ f64_is_infinite f = false /\ f64_lt0 f = false)
                                       /\ st_backward st = Some (from_seconds f)).
Proof. intros debug v st. apply (yields_ok _ good_threshold), step_threshold_yields. Qed.

(* One part: a limit-less direction comes only from the string "inf". *)
Theorem C39_part_accept : forall debug v o,
  threshold_part debug v = Ok o ->
  (v = PScalar (SStr true) /\ o = None) \/
  (exists s f, v = PScalar s /\ number_of_scalar s = Some f /\
     (f64_is_nan f = false /\ f64_is_infinite f = false /\ f64_lt0 f = false) /\
     o = Some (from_seconds f)).
Proof. exact threshold_part_ok. Qed.

(* On the wire, a float is acceptable iff its exponent field is not all ones
   and its sign bit is clear (or it is -0.0). *)
Theorem C39_good_number_bits : forall b,
  (f64_is_nan (f64_of_bits b) = false /\ f64_is_infinite (f64_of_bits b) = false /\
   f64_lt0 (f64_of_bits b) = false) <->
  (f64_exp_field b <> 2047 /\
   (f64_sign_bit b = false \/ (f64_exp_field b = 0 /\ f64_man_field b = 0))).
Proof.
  intros b. rewrite f64_lt0_bits, f64_is_nan_bits, f64_is_infinite_bits.
  destruct (Z.eqb_spec (f64_exp_field b) 2047) as [E|E];
  destruct (Z.eqb_spec (f64_man_field b) 0) as [M|M];
  destruct (Z.eqb_spec (f64_exp_field b) 0) as [E0|E0];
  destruct (f64_sign_bit b); cbn; split; intros; intuition (try congruence; try lia).
Qed.

(* The thresholds of a loaded [synchronization] section (defaults included)
   are good whatever the order and number of the entries. *)
Theorem C39_loaded_section : forall debug fs c,
  load_sync debug fs default_sync = Ok c ->
  good_threshold (c_single c) /\ good_threshold (c_startup c).
Proof.
  intros debug fs c H. exact (yields_ok _ _ c (load_sync_yields debug fs default_sync) H default_sync_good).
Qed.

(* Never crashes, numeric part: no value reaches the only panic site of these
   paths (the debug assertion of NtpDuration::from_seconds), in either build
   profile.
   PARTIAL with respect to the property text: the TOML parser, the other
   fields of the document and Config::check are outside the model; they are
   exercised by the document stream of the check (generated and byte-mutated
   configuration texts under catch_unwind), which is testing, not proof. *)
Theorem C39_no_crash_partial : forall debug,
  (forall v p, step_threshold_of debug v <> Panic p) /\
  (forall v p, threshold_part debug v <> Panic p) /\
  (forall s p, duration_of debug s <> Panic p) /\
  (forall s p, accumulated_of debug s <> Panic p) /\
  (forall fs c p, load_sync debug fs c <> Panic p).
Proof.
  intros debug. repeat split; intros.
  - exact (yields_np _ _ (step_threshold_yields debug v) p).
  - exact (yields_np _ _ (threshold_part_yields debug v) p).
  - exact (yields_np _ _ (duration_yields debug s) p).
  - exact (yields_np _ _ (accumulated_yields debug s) p).
  - exact (yields_np _ _ (load_sync_yields debug fs c) p).
Qed.

(* The debug assertion of NtpDuration::from_seconds makes no difference: a debug build and a
   release build deserialize every threshold value to the same result. *)
Theorem C39_profiles_agree : forall v,
  step_threshold_of true v = step_threshold_of false v.
Proof.
  intros [s | es |]; [| apply threshold_map_profiles | reflexivity].
  rewrite !single_as_part, threshold_part_profiles. reflexivity.
Qed.

(* The converted value is a non-negative NtpDuration: for every float that is
   not NaN, not infinite and not below zero, from_seconds (floor, subtraction,
   multiplication and the two saturating casts on binary64) is >= 0. *)
Theorem C39_duration_nonneg : forall f,
  f64_is_nan f = false -> f64_is_infinite f = false -> f64_lt0 f = false ->
  0 <= from_seconds f.
Proof. intros f N I L. apply from_seconds_nonneg. repeat split; assumption. Qed.

(* Hence every direction of every accepted threshold is absent or >= 0. *)
Theorem C39_thresholds_nonneg : forall debug v st,
  step_threshold_of debug v = Ok st ->
  (forall d, st_forward st = Some d -> 0 <= d) /\ (forall d, st_backward st = Some d -> 0 <= d).
Proof.
  intros debug v st H. destruct (C39_parts _ _ _ H) as [F B].
  split; intros d E; [exact (good_part_nonneg _ _ F E) | exact (good_part_nonneg _ _ B E)].
Qed.

(* non-vacuity: { forward = 10, backward = 20 } and 0.5 are accepted with the
   expected durations; { forward = -5 }, { forward = nan }, { backward = -inf }
   and the single number -1 are rejected (the first three are accepted by a
   per-direction visitor that does not validate) *)
Example C39_nonvacuous :
  step_threshold_of false (TMap [(KForward, PScalar (SInt 10)); (KBackward, PScalar (SInt 20))])
    = Ok {| st_forward := Some (10 * 2 ^ 32); st_backward := Some (20 * 2 ^ 32) |}
  /\ step_threshold_of false (TScalar (SFloat 0x3FE0000000000000))
    = Ok {| st_forward := Some (2 ^ 31 - 1); st_backward := Some (2 ^ 31 - 1) |}
  /\ step_threshold_of false (TMap [(KForward, PScalar (SInt (-5)))]) = Err EV_INVALID_VALUE
  /\ step_threshold_of true (TMap [(KForward, PScalar (SFloat 0x7FF8000000000000))]) = Err EV_INVALID_VALUE
  /\ step_threshold_of false (TMap [(KBackward, PScalar (SFloat 0xFFF0000000000000))]) = Err EV_INVALID_VALUE
  /\ step_threshold_of false (TScalar (SInt (-1))) = Err EV_INVALID_VALUE
  /\ step_threshold_of false (TMap [(KForward, PScalar (SStr true))])
    = Ok {| st_forward := None; st_backward := None |}.
Proof. vm_compute. repeat split. Qed.

Print Assumptions C39_single_form.
Print Assumptions C39_parts.
Print Assumptions C39_part_accept.
Print Assumptions C39_good_number_bits.
Print Assumptions C39_loaded_section.
Print Assumptions C39_no_crash_partial.
Print Assumptions C39_profiles_agree.
Print Assumptions C39_duration_nonneg.
Print Assumptions C39_thresholds_nonneg.
