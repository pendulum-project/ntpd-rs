(* C34  NTPv5 Bloom filters are transferred faithfully.
   Property theorems; the lemmas behind them are in Proofs/Bloom.v; model Model/Bloom.v
   (a filter = its 512 bytes, a server id = its ten 12-bit indices, a client
   cookie = an integer). *)
From V Require Import Model.Bloom Proofs.Bloom.
From V Require Import Gen.ConstSource.

(* No false negatives, and adding never removes: after add_id the id is
   reported, every id reported before still is, and nothing panics. *)
Theorem C34_no_false_negative : forall f id, length f = NBYTES -> id_ok id ->
  exists f', add_id f id = Ok f' /\ length f' = NBYTES /\
    contains_id f' id = Ok true /\
    (forall id', id_ok id' -> contains_id f id' = Ok true -> contains_id f' id' = Ok true).
Proof. exact add_id_contains. Qed.

(* ... and the same for the union of two filters (BloomFilter::add), both ways *)
Theorem C34_union_keeps_members : forall f g id,
  length f = NBYTES -> length g = NBYTES -> id_ok id ->
  length (bf_add f g) = NBYTES /\
  (contains_id f id = Ok true -> contains_id (bf_add f g) id = Ok true) /\
  (contains_id g id = Ok true -> contains_id (bf_add f g) id = Ok true).
Proof. exact bf_add_contains. Qed.

(* The server answers a chunk request with exactly the requested bytes of its
   filter, or not at all (when the request reaches beyond byte 512). *)
Theorem C34_server_chunk : forall f plen off, length f = NBYTES -> 0 <= plen -> 0 <= off ->
  to_response (mkReq plen off) f =
    (if off + plen <=? BLOOM_BYTES then Some (slice f (Z.to_nat off) (Z.to_nat plen)) else None) /\
  (forall b, to_response (mkReq plen off) f = Some b -> Z.of_nat (length b) = plen).
Proof. exact to_response_spec. Qed.

(* RemoteBloomFilter::new accepts exactly the chunk sizes that are multiples of
   4, in 1..512, dividing 512 *)
Theorem C34_chunk_sizes : forall cs, 0 <= cs < 65536 ->
  (valid_chunk cs <-> exists r, rbf_new cs = Some r) /\
  (forall r, rbf_new cs = Some r -> r = mkRbf bf_new cs None 0 false).
Proof.
  intros cs Hc. split; [split|].
  - intros Hv. eexists. apply rbf_new_iff; auto.
  - intros [r H]. apply rbf_new_iff in H; tauto.
  - intros r H. apply rbf_new_iff in H; tauto.
Qed.

(* A chunk is accepted only for the request currently outstanding (same client
   cookie) and only in the requested size; handle_response cannot panic. *)
Theorem C34_accept_only_current : forall cs r c b, valid_chunk cs -> rinv cs r ->
  (accepted r (Resp c b) = true <->
     exists off, last_req r = Some (off, c) /\ Z.of_nat (length b) = chunk r) /\
  (forall s, handle_response r c b <> Panic s).
Proof.
  intros cs r c b Hv Hi. unfold accepted. rewrite (handle_response_rinv cs r c b Hv Hi).
  destruct Hi as (<- & _). destruct (last_req r) as [[off ec]|].
  2:{ split; [split; [discriminate|intros (o & H & _); discriminate]|discriminate]. }
  destruct (Z.eqb_spec c ec) as [->|Nc]; cbn [negb].
  2:{ split; [split; [discriminate|intros (o & [= _ E] & _); congruence]|discriminate]. }
  destruct (Z.eqb_spec (Z.of_nat (length b)) (chunk r)) as [Eb|Nb]; cbn [negb].
  - split; [split; [intros _; exists off; auto|reflexivity]|discriminate].
  - split; [split; [discriminate|intros (o & _ & E); congruence]|discriminate].
Qed.

(* Every history of requests and responses (genuine, stale, duplicated, wrong
   cookie, wrong size, in any order), provided that whatever passes the two
   acceptance tests is the server's answer to the outstanding request
   ([honest]): the run never panics; full_filter is Some exactly when 512/chunk
   answers were accepted, and then it is the server's filter; before that
   the bytes below next_to_request already agree with the server's. *)
Theorem C34_complete : forall cs f evs r0, 0 <= cs < 65536 -> length f = NBYTES ->
  rbf_new cs = Some r0 -> honest f r0 evs ->
  exists r, brun r0 evs = Ok r /\
    (filled r = true <-> 512 / cs <= Z.of_nat (n_accepted r0 evs)) /\
    (forall g, full_filter r = Some g -> g = f) /\
    (filled r = false -> next r = Z.of_nat (n_accepted r0 evs) * cs /\
        firstn (Z.to_nat (next r)) (filter r) = firstn (Z.to_nat (next r)) f).
Proof.
  intros cs f evs r0 Hc Hf Hn Hh. apply rbf_new_iff in Hn as [Hvc ->]; [|exact Hc].
  destruct (brun_inv cs f evs _ 0 Hvc Hf (rinv_new cs Hvc) eq_refl eq_refl Hh) as (r & E & Hi & Ha & Hk).
  exists r. split; [exact E|]. unfold agree, counted, full_filter in *. rewrite Z.add_0_l in Hk.
  destruct Hi as (_ & _ & Hnx & _). destruct Hvc as (_ & Hr5 & Hd).
  assert (512 = cs * (512 / cs)) as E5 by (apply Z_div_exact_2; lia).
  destruct (filled r).
  - split; [tauto|]. split; [intros g [= <-]; exact Ha|discriminate].
  - split; [|split; [discriminate|auto]]. split; [discriminate|]. intros Hge. exfalso. nia.
Qed.

(* [honest] follows from the protocol discipline: requests use fresh client
   cookies, and a response carrying the cookie of an earlier request carries
   the server's answer to that request (or has the wrong size). *)
Theorem C34_discipline_suffices : forall cs f evs r0, 0 <= cs < 65536 -> length f = NBYTES ->
  rbf_new cs = Some r0 -> disciplined f cs r0 [] evs -> honest f r0 evs.
Proof.
  intros cs f evs r0 Hc Hf Hn Hd. apply rbf_new_iff in Hn as [Hvc ->]; [|exact Hc].
  apply (disciplined_honest cs f evs _ [] Hvc Hf (rinv_new cs Hvc)); [discriminate|exact Hd].
Qed.

(* non-vacuity: chunk 256, two rounds with a stale answer in between *)
Example C34_nonvacuous :
  let f := unsparse [0; 255; 300; 7; 511; 128] bf_new in
  let a0 := slice f 0 256 in let a1 := slice f 256 256 in
  let evs := [Req 5; Resp 5 a0; Req 6; Resp 5 a0; Resp 6 (junk 1 8); Resp 6 a1; Resp 6 a1] in
  exists r0 r, rbf_new 256 = Some r0 /\ disciplined f 256 r0 [] evs /\ brun r0 evs = Ok r /\
    n_accepted r0 evs = 2%nat /\ full_filter r = Some f /\
    brun r0 (firstn 5 evs) = Ok (mkRbf (splice bf_new 0 a0) 256 (Some (256, 6)) 256 false) /\
    contains_id f [7; 6; 5; 4; 3; 2; 1; 0; 2401; 2402] = Ok true.
Proof.
  (* one conjunct at a time, each by vm_compute: a bare [split] would close an equation by
     unification, that is with the slow evaluator *)
  intros f a0 a1 evs. eexists. eexists. split; [reflexivity|].
  split; [apply disciplinedb_sound; vm_compute; reflexivity|].
  split; [vm_compute; reflexivity|]. split; [vm_compute; reflexivity|].
  split; [vm_compute; reflexivity|]. split; vm_compute; reflexivity.
Qed.

Print Assumptions C34_no_false_negative.
Print Assumptions C34_union_keeps_members.
Print Assumptions C34_server_chunk.
Print Assumptions C34_chunk_sizes.
Print Assumptions C34_accept_only_current.
Print Assumptions C34_complete.
Print Assumptions C34_discipline_suffices.
