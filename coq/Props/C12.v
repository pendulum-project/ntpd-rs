(* C12  NTP version negotiation follows the upgrade protocol.
   The lemmas behind the theorems are in Proofs/SourceVersion.v.

   [s_ver] is NtpSource::protocol_version: V4 | Upgrading tries_left |
   Upgraded | V5.  [accepts s now p = Some id]: the decoded packet is accepted
   for the pending request (inside the window, expected version,
   valid_server_response) -- a "matching answer". *)
From V Require Import Model.Source Gen.ConstSource Gen.ConstSourceS2 Proofs.SourceBase Proofs.SourceIncoming Proofs.SourceVersion.

(* A source in state V4 (V5) -- configured so, fallen back / confirmed, or an NTS
   source with that negotiated version -- stays there in every history and every
   request it sends is NTPv4 (NTPv5) without the upgrade marker. *)
Theorem C12_fixed_version : forall c evs s s' tr v,
  v = V4 \/ v = V5 -> s_ver s = v -> run c s evs = Ok (s', tr) ->
  s_ver s' = v /\ Forall (send_ok (match v with V4 => 4 | _ => 5 end) false) (concat tr).
Proof. exact fixed_version. Qed.

(* an NTS source uses, and keeps, the version negotiated during key exchange *)
Theorem C12_nts_version : forall c evs s s' tr,
  nts_ver_ok s -> s_nts s = true -> run c s evs = Ok (s', tr) -> s_ver s' = s_ver s /\ nts_ver_ok s'.
Proof. exact nts_version. Qed.

(* automatic mode: requests are NTPv4 carrying the upgrade marker *)
Theorem C12_upgrading_sends_v4_marker : forall c s now d s' acts t r,
  s_nts s = false -> s_ver s = Upgrading t -> step_timer c s now d = Ok (s', acts) ->
  In (Send r) acts -> r_ver r = 4 /\ r_upgrade r = true /\ s_ver s' = Upgrading t.
Proof.
  intros c s now d s' acts t r N E H I.
  destruct (timer_request _ _ _ _ _ _ _ H I) as (-> & -> & ->).
  rewrite N. unfold ver_at_timer. rewrite E. auto.
Qed.

(* the switch to NTPv5 happens exactly on a matching answer carrying the marker *)
Theorem C12_switch_only_on_marker : forall c s e s' acts t,
  s_ver s = Upgrading t -> step c s e = Ok (s', acts) ->
  (s_ver s' = Upgraded <->
   exists now p id, e = Incoming now (Some p) /\ accepts s now p = Some id /\ is_upgrade p = true).
Proof.
  intros c s e s' acts t E H. rewrite (step_ver _ _ _ _ _ H), (ver_after_upgrading _ _ _ E). split.
  - destruct e as [now d|now [p|]]; try discriminate.
    destruct (accepts s now p) as [id|] eqn:A; [|discriminate].
    destruct (is_upgrade p) eqn:U; [eauto 6|destruct (t <=? 1); discriminate].
  - intros (now & p & id & -> & A & U). now rewrite A, U.
Qed.

(* a matching answer without the marker counts tries_left down, the last one returns to V4 *)
Theorem C12_countdown : forall c s now p id s' acts t,
  s_ver s = Upgrading t -> accepts s now p = Some id -> is_upgrade p = false ->
  step_incoming c s now (Some p) = (s', acts) ->
  s_ver s' = if t <=? 1 then V4 else Upgrading (t - 1).
Proof.
  intros c s now p id s' acts t E A U H. apply incoming_ver in H.
  now rewrite A, E, ver_after_valid_upgrading, U in H.
Qed.

(* timers and everything that is not a matching answer leave tries_left alone *)
Theorem C12_upgrading_unchanged : forall c s e s' acts t,
  s_ver s = Upgrading t -> step c s e = Ok (s', acts) ->
  (forall now p, e = Incoming now (Some p) -> accepts s now p = None) ->
  s_ver s' = Upgrading t.
Proof.
  intros c s e s' acts t E H NA. rewrite (step_ver _ _ _ _ _ H), (ver_after_upgrading _ _ _ E).
  destruct e as [now d|now [p|]]; auto. now rewrite (NA now p eq_refl).
Qed.

(* hence plain NTPv4 is resumed exactly at the t-th matching answer without marker;
   t = DEFAULT_UPGRADE_TRIES = 8 for a freshly configured source *)
Theorem C12_give_up_after : forall ps t,
  1 <= t -> Forall (fun p => is_upgrade p = false) ps ->
  fold_left ver_after_valid ps (Upgrading t) =
  if Z.of_nat (length ps) <? t then Upgrading (t - Z.of_nat (length ps)) else V4.
Proof.
  induction ps as [|p ps IH]; intros t T F.
  - simpl. destruct (Z.ltb_spec 0 t); [f_equal|]; lia.
  - inversion F as [|? ? U F']; subst. cbn [fold_left]. rewrite ver_after_valid_upgrading, U.
    simpl length. rewrite Nat2Z.inj_succ. destruct (Z.leb_spec t 1).
    + destruct (Z.ltb_spec (Z.succ (Z.of_nat (length ps))) t); [lia|].
      apply fold_ver_fixed. auto.
    + rewrite IH by (auto; lia).
      destruct (Z.ltb_spec (Z.of_nat (length ps)) (t - 1)),
               (Z.ltb_spec (Z.succ (Z.of_nat (length ps))) t); try lia; [f_equal; lia|reflexivity].
Qed.

(* the upgraded association: the first matching (NTPv5) answer confirms it ... *)
Theorem C12_upgraded_to_v5 : forall c s now p id s' acts,
  s_ver s = Upgraded -> accepts s now p = Some id ->
  step_incoming c s now (Some p) = (s', acts) -> s_ver s' = V5 /\ p_ver p = 5.
Proof.
  intros c s now p id s' acts E A H. split.
  - apply incoming_ver in H. rewrite A, E in H. exact H.
  - apply accepts_spec in A. destruct A as (dl & _ & _ & X & _). rewrite E in X. simpl in X. lia.
Qed.

(* ... a timer falls back to NTPv4 exactly when it goes on to poll and the last two
   polls were not answered (two low bits of the reach register zero); otherwise it
   stays Upgraded *)
Theorem C12_fallback_two_misses : forall c s now d s' acts,
  s_ver s = Upgraded -> step_timer c s now d = Ok (s', acts) ->
  (s_ver s' = V4 <-> timer_polls s = true /\ s_reach s mod 2 ^ AFTER_UPGRADE_TRIES_THRESHOLD = 0)
  /\ (s_ver s' = V4 \/ s_ver s' = Upgraded).
Proof.
  intros c s now d s' acts E H. rewrite (step_timer_ver _ _ _ _ _ _ H).
  unfold ver_at_timer, unanswered_at_least. rewrite E.
  destruct (timer_polls s);
    [destruct (Z.eqb_spec (s_reach s mod 2 ^ AFTER_UPGRADE_TRIES_THRESHOLD) 0) as [M|M]|];
    (split; [split|]); auto; try discriminate; intros [X Y]; congruence.
Qed.

(* the request built by that timer is NTPv4 if it falls back and NTPv5 otherwise, never
   with the upgrade marker *)
Theorem C12_fallback_request : forall c s now d s' acts r,
  s_nts s = false -> s_ver s = Upgraded -> step_timer c s now d = Ok (s', acts) -> In (Send r) acts ->
  if s_reach s mod 2 ^ AFTER_UPGRADE_TRIES_THRESHOLD =? 0
  then r_ver r = 4 /\ r_upgrade r = false /\ s_ver s' = V4
  else r_ver r = 5 /\ r_upgrade r = false /\ s_ver s' = Upgraded.
Proof.
  intros c s now d s' acts r N E H I.
  destruct (timer_request _ _ _ _ _ _ _ H I) as (-> & -> & ->).
  rewrite N. unfold ver_at_timer, unanswered_at_least. rewrite E.
  destruct (s_reach s mod 2 ^ AFTER_UPGRADE_TRIES_THRESHOLD =? 0); simpl; auto.
Qed.

(* the register: two polls in a row without an accepted answer zero the two low bits *)
Theorem C12_reach_two_misses : forall r, reach_poll (reach_poll r) mod 4 = 0.
Proof. intros r. unfold reach_poll. lia. Qed.
(* an accepted answer sets one of them *)
Theorem C12_reach_answered : forall r, 0 <= r < 256 -> reach_received r mod 4 <> 0.
Proof. intros r _. rewrite reach_received_odd. lia. Qed.
(* ... and it is still set one poll later *)
Theorem C12_reach_one_miss : forall r, 0 <= r < 256 -> reach_poll (reach_received r) mod 4 <> 0.
Proof. intros r _. unfold reach_poll. rewrite reach_received_odd. lia. Qed.

(* Upgraded is left only towards V4 (that timer) or V5 (a matching answer) *)
Theorem C12_upgraded_moves : forall c s e s' acts,
  s_ver s = Upgraded -> step c s e = Ok (s', acts) ->
  s_ver s' = Upgraded \/ s_ver s' = V4 \/ s_ver s' = V5.
Proof.
  intros c s e s' acts E H. rewrite (step_ver _ _ _ _ _ H).
  destruct e as [now d|now [p|]]; simpl; unfold ver_at_timer; rewrite ?E; auto.
  - destruct (timer_polls s); [destruct (unanswered_at_least _ _)|]; auto.
  - destruct (accepts s now p); simpl; auto.
Qed.

(* a datagram moves the version exactly when it is a matching answer, by ver_after_valid *)
Theorem C12_incoming_ver : forall c s now op s' acts,
  step_incoming c s now op = (s', acts) ->
  s_ver s' = match op with
             | Some p => match accepts s now p with
                         | Some _ => ver_after_valid (s_ver s) p
                         | None => s_ver s
                         end
             | None => s_ver s
             end.
Proof. exact incoming_ver. Qed.

(* A source only ever accepts answers of the version it currently expects
   (V4 also accepts NTPv3 answers, DESIGN.md section 5) *)
Theorem C12_expected_only : forall c s now p,
  expected (s_ver s) (p_ver p) = false -> step_incoming c s now (Some p) = (s, []).
Proof.
  intros c s now p E. rewrite step_incoming_accepts. unfold accepts. now rewrite E.
Qed.

(* is_expected_incoming_version, tabulated *)
Theorem C12_expected_table : forall v pv,
  expected v pv = true <->
  match v with
  | V4 => pv = 4 \/ pv = 3
  | Upgrading _ => pv = 4
  | Upgraded | V5 => pv = 5
  end.
Proof. intros v pv. destruct v; simpl; lia. Qed.

(* non-vacuity: automatic mode; marker answer -> Upgraded, an NTPv5 request, two
   unanswered polls, fallback to plain NTPv4 *)
Example C12_nonvacuous :
  let c := mkCfg 4 10 in
  let ans o := Some (mkPkt 4 4 2 4 0 false o true None [] []) in
  exists s', run c (init c false [] (Upgrading DEFAULT_UPGRADE_TRIES))
      [Timer 0 4; Incoming 10 (ans 0); Timer 16000 4; Timer 16000 4; Timer 16000 4]
    = Ok (s', [[Send (mkReq 0 4 true 4 None 0 48); SetTimer 16]; [Measure 0];
               [Send (mkReq 1 5 false 4 None 0 96); SetTimer 16];
               [Send (mkReq 2 5 false 4 None 0 96); SetTimer 16];
               [Send (mkReq 3 4 false 4 None 0 48); SetTimer 16]])
    /\ s_ver s' = V4.
Proof. eexists. vm_compute. split; reflexivity. Qed.

Print Assumptions C12_fixed_version.
Print Assumptions C12_nts_version.
Print Assumptions C12_upgrading_sends_v4_marker.
Print Assumptions C12_switch_only_on_marker.
Print Assumptions C12_countdown.
Print Assumptions C12_upgrading_unchanged.
Print Assumptions C12_give_up_after.
Print Assumptions C12_upgraded_to_v5.
Print Assumptions C12_fallback_two_misses.
Print Assumptions C12_fallback_request.
Print Assumptions C12_reach_two_misses.
Print Assumptions C12_reach_answered.
Print Assumptions C12_reach_one_miss.
Print Assumptions C12_upgraded_moves.
Print Assumptions C12_incoming_ver.
Print Assumptions C12_expected_only.
Print Assumptions C12_expected_table.
