(* C42  The multi-clock estimator keeps unrelated estimates intact.
   Property theorems; the lemmas about the single operations are in Proofs/Estimator.v.  Model: Model/Estimator.v
   (EstimatorState of statime-algo/src/estimator.rs with the Matrix of matrix.rs),
   generic in the element type A and its arithmetic F (the theorems hold for every
   arithmetic, in particular for binary64 with all its NaN/rounding behaviour).

   A history is a list of operations (progress_time, the three absorb operations,
   measurement, add/remove of clocks, external clocks and links) applied to the
   empty estimator the way every user in lib.rs applies them: on a clone, keeping
   the old state when the operation fails ([apply_keep], [run_ops]). *)
From V Require Import Model.Estimator Proofs.Common Proofs.Estimator.

(* Invariant: after every history the state vector is n x 1, the covariance n x n,
   identifiers are unique, and the index blocks (2 rows per clock, 1 per link) lie
   in 0..n, are pairwise disjoint and their sizes add up to n (a partition of 0..n). *)
Theorem C42_invariant : forall (A : Type) (F : Ops A) t (ops : list (@op A)),
  WF (run_ops F ops (empty F t)).
Proof. intros A F t ops. apply WF_run_ops, WF_empty. Qed.

(* Adding or removing a clock, an external clock or a link after any history leaves
   the reported offset and frequency (value and uncertainty) of every OTHER clock and
   the reported delay of every OTHER link exactly as they were (the same results of
   the queries, including "unknown" for identifiers that are not present). *)
Theorem C42_unrelated_kept : forall (A : Type) (F : Ops A) t (ops : list (@op A)) (o : @op A) st',
  apply F o (run_ops F ops (empty F t)) = Ok st' ->
  unrelated_kept F o (run_ops F ops (empty F t)) st'.
Proof. intros A F t ops o st'. apply apply_unrelated_kept, C42_invariant. Qed.

(* The same per operation, for any well-formed state, with what the operation does to its own
   identifier, the time and the external clocks.  add_clock: the new clock reports the initial
   offset and frequency, each with the square root of its squared uncertainty. *)
Theorem C42_add_clock_preserves : forall (A : Type) (F : Ops A) st id ov ou fv fu w st',
  WF st -> add_clock F id ov ou fv fu w st = Ok st' ->
  same_estimates_except_clock F st st' id /\ e_time st' = e_time st /\ e_ext st' = e_ext st /\
  clock_offset F st' id = Ok (ov, fsqrt F (sq F ou)) /\
  clock_frequency F st' id = Ok (fv, fsqrt F (sq F fu)).
Proof. exact @add_clock_preserves. Qed.

(* remove_clock: afterwards both queries of the removed clock answer UnknownClock *)
Theorem C42_remove_clock_preserves : forall (A : Type) (F : Ops A) st id st',
  WF st -> remove_clock F id st = Ok st' ->
  same_estimates_except_clock F st st' id /\ e_time st' = e_time st /\ e_ext st' = e_ext st /\
  clock_offset F st' id = Err E_UnknownClock /\ clock_frequency F st' id = Err E_UnknownClock.
Proof. exact @remove_clock_preserves. Qed.

(* add_link: the new link reports the initial delay with the square root of its squared uncertainty *)
Theorem C42_add_link_preserves : forall (A : Type) (F : Ops A) st id dv du dc st',
  WF st -> add_link F id dv du dc st = Ok st' ->
  same_estimates_except_link F st st' id /\ e_time st' = e_time st /\ e_ext st' = e_ext st /\
  link_delay F st' id = Ok (dv, fsqrt F (sq F du)).
Proof. exact @add_link_preserves. Qed.

(* remove_link: afterwards the delay query of the removed link answers UnknownLink *)
Theorem C42_remove_link_preserves : forall (A : Type) (F : Ops A) st id st',
  WF st -> remove_link F id st = Ok st' ->
  same_estimates_except_link F st st' id /\ e_time st' = e_time st /\ e_ext st' = e_ext st /\
  link_delay F st' id = Err E_UnknownLink.
Proof. exact @remove_link_preserves. Qed.

(* add_external_clock and remove_external_clock change only the list of external clocks: time, state
   vector, covariance and every report stay *)
Theorem C42_external_preserves : forall (A : Type) (F : Ops A) (st : @est A) id st',
  add_external_clock id st = Ok st' \/ remove_external_clock id st = Ok st' ->
  same_estimates F st st' /\ e_time st' = e_time st /\ e_state st' = e_state st /\ e_unc st' = e_unc st.
Proof. exact @external_preserves. Qed.

(* Exactly which additions/removals succeed. *)
Theorem C42_success_conditions : forall (A : Type) (F : Ops A) (st : @est A), WF st ->
  (forall id ov ou fv fu w, (exists st', add_clock F id ov ou fv fu w st = Ok st') <-> is_known_clock st id = false) /\
  (forall id, (exists st', add_external_clock id st = Ok st') <-> is_known_clock st id = false) /\
  (forall id, (exists st', remove_clock F id st = Ok st') <-> is_internal_clock st id = true) /\
  (forall id, (exists st', remove_external_clock id st = Ok st') <-> is_external_clock st id = true) /\
  (forall id dv du dc, (exists st', add_link F id dv du dc st = Ok st') <->
     (is_known_clock st (link_first id) = true /\ is_known_clock st (link_second id) = true /\
      existsb (fun l => linkid_eqb (li_id l) id) (e_links st) = false)) /\
  (forall id, (exists st', remove_link F id st = Ok st') <->
     existsb (fun l => linkid_eqb (li_id l) id) (e_links st) = true).
Proof.
  intros A F st W.
  assert (Hok : forall (r : res (@est A)) (b : bool), (if b then exists e, r = Err e else exists st', r = Ok st') ->
                ((exists st', r = Ok st') <-> b = false)).
  { intros r [|] H; split; auto; try discriminate. destruct H as [e ->]. intros [st' E]. discriminate. }
  assert (Hrm : forall X (p : X -> bool) l (k : X -> list X -> @est A) e,
            (exists st', match remove_first p l with None => Err e | Some (x, r) => Ok (k x r) end = Ok st')
            <-> existsb p l = true).
  { intros X p l k e. rewrite <- not_false_iff_true, <- remove_first_none.
    destruct (remove_first p l) as [[x r]|]; split; eauto; try congruence. intros [st' E]. discriminate. }
  split; [|split; [|split; [|split; [|split]]]]; intros.
  - apply Hok. rewrite add_clock_eq by exact W. destruct (is_known_clock st id); eauto.
  - apply Hok. unfold add_external_clock, is_known_clock.
    destruct (is_internal_clock st id), (is_external_clock st id); cbn; eauto.
  - rewrite remove_clock_eq by exact W. apply Hrm.
  - apply Hrm.
  - rewrite add_link_eq by exact W. fold (link_present st id).
    destruct (is_known_clock st (link_first id)), (is_known_clock st (link_second id)), (link_present st id);
      cbn; split; try (intros [st' E]; discriminate); try (intros (E1 & E2 & E3); discriminate); eauto.
  - rewrite remove_link_eq by exact W. apply Hrm.
Qed.

(* An operation that names an unknown identifier (clock, external clock, link) or adds a
   duplicate one fails with an error after any history, and the estimator handle keeps
   exactly the state it had (clone-then-replace). *)
Theorem C42_errors_leave_state : forall (A : Type) (F : Ops A) t (ops : list (@op A)) (o : @op A),
  let st := run_ops F ops (empty F t) in
  bad_ident o st = true -> (exists e, apply F o st = Err e) /\ apply_keep F o st = st.
Proof.
  intros A F t ops o st H. destruct (bad_ident_fails F o st (C42_invariant A F t ops) H) as [e He].
  split; eauto. unfold apply_keep. now rewrite He.
Qed.

(* ... and so does every operation that fails for any other reason. *)
Theorem C42_failed_keeps_state : forall (A : Type) (F : Ops A) (o : @op A) (st : @est A),
  (forall st', apply F o st <> Ok st') -> apply_keep F o st = st.
Proof.
  intros A F o st H. unfold apply_keep. destruct (apply F o st) as [st'| |] eqn:E; auto. now destruct (H st').
Qed.

(* Time: after any history, progress_time to an earlier time (wrapping 128-bit difference
   negative) fails and leaves the state, to a later or equal time it succeeds and sets
   exactly that time; every other operation keeps the time, except the absorption of a
   step of the system clock, which shifts the time scale by that step (by design). *)
Theorem C42_time_monotone : forall (A : Type) (F : Ops A) t (ops : list (@op A)) (o : @op A),
  let st := run_ops F ops (empty F t) in
  match o with
  | OpProgress new =>
      (ts_sub new (e_time st) < 0 -> apply F o st = Err E_NonMonotonic /\ apply_keep F o st = st) /\
      (0 <= ts_sub new (e_time st) -> exists st', apply F o st = Ok st' /\ e_time st' = new)
  | OpAbsorbSystem _ d => forall st', apply F o st = Ok st' -> e_time st' = ts_add (e_time st) d
  | _ => forall st', apply F o st = Ok st' -> e_time st' = e_time st
  end.
Proof.
  intros A F t ops o st. pose proof (C42_invariant A F t ops) as W. fold st in W.
  destruct o as [new| | | | | | | | | | ]; try (intros st' H; apply (apply_frame F _ _ _ W H)).
  destruct (progress_time_eq F st new W) as (s & u & _ & E).
  unfold apply_keep. cbn [apply]. rewrite E. split; intros H.
  - rewrite (proj2 (Z.ltb_lt _ _) H). auto.
  - rewrite (proj2 (Z.ltb_ge _ _) H). destruct (Z.eqb_spec new (e_time st)) as [->|]; eauto.
Qed.

(* the wrapping difference is the ordinary one for timestamps below 2^127 (2^63 s) *)
Theorem C42_time_difference : forall a b,
  0 <= a < 2 ^ 127 -> 0 <= b < 2 ^ 127 -> ts_sub a b = a - b.
Proof.
  intros a b Ha Hb. apply to_signed_small; lia.
Qed.

(* non-vacuity: a history with two clocks, an external clock and a link; removing the first
   clock moves the second clock's rows from 2,3 to 0,1 and the link's row from 4 to 2, and
   the reports of the second clock and of the link are unchanged, while the removed clock is
   unknown afterwards; adding a clock under the identifier of the external clock and removing a
   link that is not there are bad identifiers; progress_time to 999 fails as non-monotonic and
   to 1001 succeeds and sets that time *)
Example C42_nonvacuous :
  let h := [OpAddClock 10 100 3 101 4 1; OpAddExternal 30; OpAddClock 20 200 5 201 6 1;
            OpAddLink (20, 30, 0) 300 7 1] in
  let st := run_ops z_ops h (empty z_ops 1000) in
  map (@ci_base Z) (e_clocks st) = [0%nat; 2%nat] /\ map (@li_index Z) (e_links st) = [4%nat] /\
  clock_frequency z_ops st 20 = Ok (201, 6) /\ link_delay z_ops st (20, 30, 0) = Ok (300, 7) /\
  match apply z_ops (OpRemoveClock 10) st with
  | Ok st' => map (@ci_base Z) (e_clocks st') = [0%nat] /\ map (@li_index Z) (e_links st') = [2%nat] /\
              clock_frequency z_ops st' 20 = Ok (201, 6) /\ link_delay z_ops st' (20, 30, 0) = Ok (300, 7) /\
              clock_offset z_ops st' 10 = Err E_UnknownClock
  | _ => False
  end /\
  bad_ident (OpAddClock 30 0 0 0 0 0) st = true /\ bad_ident (OpRemoveLink (20, 30, 1)) st = true /\
  apply z_ops (OpProgress 999) st = Err E_NonMonotonic /\
  (exists st', apply z_ops (OpProgress 1001) st = Ok st' /\ e_time st' = 1001).
Proof. vm_compute. repeat split. eexists. split; reflexivity. Qed.

Print Assumptions C42_invariant.
Print Assumptions C42_unrelated_kept.
Print Assumptions C42_add_clock_preserves.
Print Assumptions C42_remove_clock_preserves.
Print Assumptions C42_add_link_preserves.
Print Assumptions C42_remove_link_preserves.
Print Assumptions C42_external_preserves.
Print Assumptions C42_success_conditions.
Print Assumptions C42_errors_leave_state.
Print Assumptions C42_failed_keeps_state.
Print Assumptions C42_time_monotone.
Print Assumptions C42_time_difference.
