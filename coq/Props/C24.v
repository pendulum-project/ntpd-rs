(* C24  NTP packets survive a decode/encode round trip.
   Every packet the decoder accepts (without keys) can be encoded again without
   error, and after one normalising round the encoding is stable.
   The lemmas about plain packets and their wire image are in Proofs/RoundTrip.v
   and Proofs/FixedPoint.v.

   The model is the tree with the C24 repair: a v5 reference-id request whose
   payload is not a whole number of words is rejected by the decoder.  On a tree
   without the repair the correspondence differs on exactly that class and the
   check's monitor reports the datagram whose re-encoding panics. *)
From V Require Import Model.Packet Proofs.Packet Proofs.RoundTrip Proofs.FixedPoint.

(* Whatever the decoder accepts without keys (any byte string, NTPv3/v4/v5,
   any extension fields, any MAC) is encoded by [serialize] without error and
   without panic into any buffer that is large enough; the bytes do not depend
   on the buffer.  (No cookie is ever returned without keys.) *)
Theorem C24_reencode_ok : forall (dec : oracle) (data : bytes) (p : packet) (c : option cookie),
  wf_bytes data ->
  deserialize dec NoKeys data = Ok (Accept p c) ->
  c = None /\
  exists b1, forall enc cap, blen b1 <= cap -> serialize enc None cap None p = Ok b1.
Proof.
  intros dec data p c Hwf H. destruct (accept_plain _ _ _ _ Hwf H) as (Hc & Hhd & Hp).
  split; [exact Hc|]. exists (wire (header_wire data (p_header p)) p). intros enc cap Hcap.
  apply serialize_plain; [exact Hp| |exact Hcap]. intros w. apply header_serialize_eq; assumption.
Qed.

(* ... and after that one normalising round the encoding is stable: the bytes b1
   produced from the accepted packet decode (without keys) to a packet p1 which
   encodes to exactly b1 again; hence decoding the re-encoded packet yields the
   same packet p1 and encoding it again yields the same bytes (reading of
   "one normalising round", DESIGN.md section 5: b1 is a fixed point of
   encode . decode and p1 of decode . encode).  All versions, all field kinds
   incl. unknown type ids, padding to the RFC 7822 minimum sizes, MACs. *)
Theorem C24_fixed_point : forall (dec : oracle) (data : bytes) (p : packet) (c : option cookie),
  wf_bytes data ->
  deserialize dec NoKeys data = Ok (Accept p c) ->
  exists b1 p1,
    (forall enc cap, blen b1 <= cap -> serialize enc None cap None p = Ok b1) /\
    deserialize dec NoKeys b1 = Ok (Accept p1 None) /\
    (forall enc cap, blen b1 <= cap -> serialize enc None cap None p1 = Ok b1).
Proof.
  intros dec data p c Hwf H. destruct (accept_plain _ _ _ _ Hwf H) as (_ & Hhd & Hp).
  destruct (header_reparse _ _ Hhd) as (H48 & Hre).
  set (hw := header_wire data (p_header p)) in *.
  assert (forall w, header_serialize w (p_header p) = wr w hw) as Hser
    by (intros w; apply header_serialize_eq; assumption).
  destruct (plain_norm p hw Hp) as (Hpn & Hwn).
  exists (wire hw p), (norm p). split; [|split].
  - intros enc cap Hcap. apply serialize_plain; assumption.
  - apply deserialize_wire; assumption.
  - intros enc cap Hcap. rewrite <- Hwn in Hcap |- *. apply serialize_plain; assumption.
Qed.

(* non-vacuity and the fixed point on a concrete NTPv5 datagram with a draft
   identification and a reference-id request of 8 octets: accepted, re-encoded,
   the re-encoding decodes to the same packet and encodes to the same bytes *)
Example C24_nonvacuous :
  let data := [43] ++ repeat 0 13 ++ [0; 1] ++ repeat 0 32
              ++ [245; 255; 0; 27] ++ draft_version_bytes ++ [0]
              ++ [245; 3; 0; 12; 0; 4; 7; 7; 7; 7; 7; 7] in
  wf_bytes data /\
  exists p b1, deserialize (table_dec []) NoKeys data = Ok (Accept p None)
    /\ serialize no_enc None 200 None p = Ok b1
    /\ b1 <> data
    /\ deserialize (table_dec []) NoKeys b1 = Ok (Accept p None).
Proof.
  cbv zeta. split; [apply wf_bytes_check; vm_compute; reflexivity|].
  eexists. eexists. split; [vm_compute; reflexivity|].
  split; [vm_compute; reflexivity|]. split; [vm_compute; discriminate|vm_compute; reflexivity].
Qed.

Print Assumptions C24_reencode_ok.
Print Assumptions C24_fixed_point.
