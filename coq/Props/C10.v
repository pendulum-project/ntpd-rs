(* C10  Poll intervals stay within configured and requested bounds.
   The lemmas behind the theorems are in Proofs/SourcePoll.v.

   [cfg_ok c]: -128 < min <= max < 127 (the property's configurations have
   0 <= min <= initial <= max <= 17).  The float tests of update_desired_poll
   (weight, period ratio, step threshold) are inputs of the model: the theorem
   holds whatever they evaluate to. *)
From V Require Import Model.Source Gen.ConstSourceS2 Proofs.SourceBase Proofs.SourceIncoming Proofs.SourcePoll.

(* The clock filter's own desired interval always lies within the configured
   limits: in the initial phase it is the minimum, the stable filter starts at
   the configured initial interval and moves by clamped steps. *)
Theorem C10_filter_desire : forall c initial hyst evs,
  cfg_ok c -> within c initial ->
  within c (get_desired_poll c (fold_left (dstep c initial hyst) evs DInitial)).
Proof.
  intros c initial hyst evs C I. apply filter_desire; auto.
  unfold desire_ok, within, cfg_ok in *. simpl. lia.
Qed.

(* the same from any phase of the filter whose desire lies within the limits *)
Theorem C10_filter_desire_any_phase : forall c initial hyst evs ph,
  cfg_ok c -> within c initial -> desire_ok c ph ->
  desire_ok c (fold_left (dstep c initial hyst) evs ph).
Proof. exact filter_desire. Qed.

(* Every request of a source created by NtpSource::new, in every history whose
   timers are handed a desire within the limits (C10_filter_desire): the poll
   exponent is at least the configured minimum and at most the larger of the
   configured maximum and the intervals asked for by the NTPv5 answers the
   source accepted so far (RATE answers never push it beyond that bound). *)
Theorem C10_poll_bounds : forall c nts stash v evs s' tr,
  c_min c <= c_max c -> Forall (desire_in c) evs ->
  run c (init c nts stash v) evs = Ok (s', tr) ->
  Forall (send_within (c_min c)
            (fold_right Z.max (c_max c) (accepted_polls c (init c nts stash v) evs)))
         (concat tr).
Proof.
  intros c nts stash v evs s' tr C D H.
  destruct (fold_max_ge (accepted_polls c (init c nts stash v) evs) (c_max c)) as [G1 G2].
  eapply poll_bounds_gen; eauto; simpl; lia.
Qed.

(* general form, from any state and any bound B that dominates the maximum, the
   current remote minimum / last interval and every accepted request *)
Theorem C10_poll_bounds_from : forall c evs s s' tr B,
  Forall (desire_in c) evs -> c_max c <= B -> s_remote_min s <= B -> s_last_poll s <= B ->
  run c s evs = Ok (s', tr) ->
  Forall (fun q => q <= B) (accepted_polls c s evs) ->
  Forall (send_within (c_min c) B) (concat tr).
Proof. exact poll_bounds_gen. Qed.

(* The timer armed with a request of exponent p is jitter * 2^p seconds for
   0 <= p <= 31, the exponent being clamped to that range otherwise (DESIGN.md
   section 5); the jitter is drawn by the implementation from [1.01, 1.05] --
   [C10_timer_window] is the window the correspondence check enforces on the
   real timer (nanoseconds, +- 1 ns for Duration::mul_f64's rounding). *)
Theorem C10_timer : forall c s now d s' acts r b,
  step_timer c s now d = Ok (s', acts) -> In (Send r) acts -> In (SetTimer b) acts ->
  b = 2 ^ Z.max 0 (Z.min SYSTEM_DURATION_MAX_SHIFT (r_poll r)).
Proof.
  intros c s now d s' acts r b H I J.
  destruct (step_timer_send _ _ _ _ _ _ _ H I) as (_ & -> & _ & P & _).
  destruct J as [J|[J|[]]]; [discriminate|]. injection J as <-.
  rewrite <- P. apply system_duration_clamp.
Qed.

(* the correspondence accepts a timer of ns nanoseconds for base b exactly inside
   b * [1.01, 1.05] seconds, +- 1 ns *)
Theorem C10_timer_window : forall b ns,
  obs_eqb (OTimer b) (OTimer ns) = true <->
  (100 + JITTER_LO_PERCENT) * 10000000 * b - 1 <= ns <= (100 + JITTER_HI_PERCENT) * 10000000 * b + 1.
Proof. intros b ns. simpl. lia. Qed.

(* non-vacuity: limits 4..6; the filter walks up to the maximum and is clamped; an
   NTPv5 answer asking for 9 makes the next request use 9 (> max), bounded by it *)
Example C10_nonvacuous :
  let c := mkCfg 4 6 in
  get_desired_poll c (fold_left (dstep c 5 1)
     [DBecomeStable; DUpdate true false false; DUpdate true false false; DUpdate true false false] DInitial) = 6
  /\ (let ans := Some (mkPkt 5 4 2 9 0 false 0 false None [] []) in
      exists s', run c (init c false [] V5) [Timer 0 4; Incoming 10 ans; Timer 16000 5]
        = Ok (s', [[Send (mkReq 0 5 false 4 None 0 96); SetTimer 16]; [Measure 0];
                   [Send (mkReq 1 5 false 9 None 0 96); SetTimer 512]])
      /\ accepted_polls c (init c false [] V5) [Timer 0 4; Incoming 10 ans; Timer 16000 5] = [9]).
Proof. vm_compute. split; [reflexivity|]. eexists. split; reflexivity. Qed.

Print Assumptions C10_filter_desire.
Print Assumptions C10_filter_desire_any_phase.
Print Assumptions C10_poll_bounds.
Print Assumptions C10_poll_bounds_from.
Print Assumptions C10_timer.
Print Assumptions C10_timer_window.
