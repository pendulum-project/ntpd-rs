(* C01  Clock steps never exceed the configured panic thresholds.
   Property theorems; the lemmas behind them are in Proofs/Controller.v, the
   model in Model/Controller.v.

   Vocabulary (Model/Controller.v).  A history is a list of controller
   operations: [Update (Some e) leap] (update_clock reached a consensus with the
   combined estimate e -- ANY four floats: the theorems quantify over every
   estimate, hence over every measurement history that could produce it),
   [Update None _] (no consensus / early return), [TimeUpdate], and the direct
   calls [SteerOffset change freq_delta], [SteerFreq change] with any f64
   arguments (a superset of what update_clock can ask for).  [trace ar c s ops]
   runs the history from state s under configuration c and returns, per
   operation, the state it ran in and the clock calls it made, and the final
   state or the exit/panic that ended the history.  [startup_steps t] are the
   arguments of step_clock made while in_startup was set ("has not yet
   synchronised": the flag is cleared exactly by the first completed consensus
   update, C01_startup_flag), [later_steps t] those made afterwards.
   [within t d]: d < forward and -backward < d in Z (None = unbounded).

   [ar : arith] says which NtpDuration::abs / Neg is in the tree (wrapping =
   unrepaired, saturating = repaired, C32); the theorems that quantify over ar hold
   for both (C01_accumulated_saturating and C01_accumulated_refuted fix one each).
   The correspondence check runs the model with [repo_arith], read from the
   sources by the constants translator.

   [cfg_wf c] only says that the thresholds are i64 values.  Thresholds may be
   None, zero, negative, asymmetric; the algorithm floats (step_threshold, ...)
   are arbitrary, NaN and infinities included.  The starting state s is
   arbitrary as well (any kernel frequency, in_startup set or cleared). *)
From V Require Import Model.TimeTypes Model.Controller Proofs.Controller.
From Coq Require Import Floats.
Open Scope Z_scope.

(* Every step made before the first consensus lies inside the startup threshold.
   [neg_ok]: with the unrepaired wrapping Neg the statement excludes the single
   configuration backward = i64::MIN (a negative threshold of -2^31 s, which only
   the unvalidated per-direction form of C39 can produce); no exclusion for the
   saturating Neg. *)
Theorem C01_startup_steps : forall ar c ops s,
  cfg_wf c -> neg_ok ar (c_startup c) ->
  Forall (within (c_startup c)) (startup_steps (fst (trace ar c s ops))).
Proof. exact startup_steps_within. Qed.

(* Every later step lies inside the single-step threshold. *)
Theorem C01_single_steps : forall ar c ops s,
  cfg_wf c -> neg_ok ar (c_single c) ->
  Forall (within (c_single c)) (later_steps (fst (trace ar c s ops))).
Proof. exact later_steps_within. Qed.

(* The mathematical sum of |d| over the later steps never exceeds the accumulated
   threshold a (0 <= a < i64::MAX: a threshold of >= 2^31 s saturates the duration
   type and is "no bound representable", DESIGN.md 5).  For the saturating abs
   (repaired tree) unconditionally; for the wrapping abs of the unrepaired tree
   under the hypothesis that no later step is i64::MIN -- see C01_accumulated_refuted. *)
Theorem C01_accumulated : forall ar c ops s a,
  acc s = 0 -> c_acc c = Some a -> 0 <= a < i64_max ->
  (sat_abs ar = true \/
   Forall (fun d => d <> i64_min) (later_steps (fst (trace ar c s ops)))) ->
  sum_abs (later_steps (fst (trace ar c s ops))) <= a.
Proof. exact accumulated_bound. Qed.

(* The repaired arithmetic: no side condition on the steps. *)
Theorem C01_accumulated_saturating : forall c ops s a,
  acc s = 0 -> c_acc c = Some a -> 0 <= a < i64_max ->
  sum_abs (later_steps (fst (trace sat_arith c s ops))) <= a.
Proof.
  intros c ops s a H0 Ea Ha.
  exact (accumulated_bound sat_arith c ops s a H0 Ea Ha (or_introl eq_refl)).
Qed.

(* Also for the unrepaired arithmetic whenever the single-step threshold bounds
   backward steps at all (then a step of i64::MIN cannot pass). *)
Theorem C01_accumulated_finite_backward : forall ar c ops s a b,
  cfg_wf c -> neg_ok ar (c_single c) ->
  bwd (c_single c) = Some b -> b <> i64_min ->
  acc s = 0 -> c_acc c = Some a -> 0 <= a < i64_max ->
  sum_abs (later_steps (fst (trace ar c s ops))) <= a.
Proof.
  intros ar c ops s a b Hw Hn Eb Hb H0 Ea Ha.
  apply accumulated_bound with (ar := ar) (c := c); auto.
  right. pose proof (later_steps_within ar c ops s Hw Hn) as F.
  eapply Forall_impl; [| exact F].
  intros d [_ W]. specialize (W b Eb).
  destruct Hw as (_ & (_ & Hwb) & _). rewrite Eb in Hwb. cbn in Hwb.
  unfold in_i64, i64_min in *. lia.
Qed.

(* The faithful model of the UNREPAIRED tree refutes the unconditional statement:
   backward threshold inf, accumulated threshold 1800 s, requests -2^31 s, +1000 s,
   -1000 s after startup: all three steps are made, their sum is far above 1800 s and
   accumulated_steps ends negative (abs(i64::MIN) wraps).  DESIGN.md 4 row 1; replayed
   on the implementation by the check's corpus. *)
Theorem C01_accumulated_refuted :
  let t := fst (trace wrap_arith witness_cfg running_st witness_ops) in
  later_steps t = [i64_min; 1000 * 2 ^ 32; - (1000 * 2 ^ 32)] /\
  sum_abs (later_steps t) > 1800 * 2 ^ 32 /\
  exists s', snd (trace wrap_arith witness_cfg running_st witness_ops) = Ok s' /\ acc s' < 0.
Proof.
  vm_compute. repeat split; try reflexivity. eexists. split; reflexivity.
Qed.

(* accumulated_steps is exactly that sum (clipped at i64::MAX). *)
Theorem C01_accumulated_is_sum : forall ar c ops s,
  acc_ok s ->
  (sat_abs ar = true \/
   Forall (fun d => d <> i64_min) (later_steps (fst (trace ar c s ops)))) ->
  (forall s', snd (trace ar c s ops) = Ok s' ->
     acc s' = Z.min (acc s + sum_abs (later_steps (fst (trace ar c s ops)))) i64_max) /\
  (forall a, c_acc c = Some a -> a < i64_max -> acc s <= a ->
     acc s + sum_abs (later_steps (fst (trace ar c s ops))) <= a).
Proof. exact accumulated_invariant. Qed.

(* When a correction would violate a threshold the daemon stops instead of stepping:
   a request above step_threshold either violates a threshold (startup threshold while
   in startup; afterwards the single-step threshold or the accumulated one) and then the
   operation makes no clock call at all and ends in the exit, or it does not and then
   exactly one step of the converted request is made.  For i64 thresholds whose negation
   is the mathematical one (neg_ok), accumulated_steps a non-negative i64 (acc_ok), and, under
   the wrapping abs, a request other than i64::MIN. *)
Theorem C01_exit_instead_of_step : forall ar c s ch fd,
  cfg_wf c -> neg_ok ar (c_startup c) -> neg_ok ar (c_single c) -> acc_ok s ->
  PrimFloat.ltb (c_step_threshold c) (PrimFloat.abs ch) = true ->
  (sat_abs ar = true \/ from_seconds ch <> i64_min) ->
  (violates c s (from_seconds ch) /\
   exists p, steer_offset ar c s ch fd = ([], Panic p) /\ is_exit p = true) \/
  (~ violates c s (from_seconds ch) /\
   steer_offset ar c s ch fd =
     ([Step (from_seconds ch)],
      Ok (if in_startup s then s
          else set_acc s (Z.min (acc s + Z.abs (from_seconds ch)) i64_max)))).
Proof. exact steer_offset_spec. Qed.

(* No operation that ends in the exit (or in a panic) has stepped the clock, whatever
   the operation ... *)
Theorem C01_no_step_when_stopping : forall ar c s o cs r,
  step ar c s o = (cs, r) -> (forall s', r <> Ok s') -> steps_of cs = [].
Proof. exact step_not_ok_no_step. Qed.

(* ... a request at or below step_threshold never steps ... *)
Theorem C01_slew_does_not_step : forall ar c s ch fd cs r,
  PrimFloat.ltb (c_step_threshold c) (PrimFloat.abs ch) = false ->
  steer_offset ar c s ch fd = (cs, r) -> steps_of cs = [].
Proof.
  intros ar c s ch fd cs r Hlt H.
  destruct (steer_offset_cases _ _ _ _ _ _ _ H) as [(Hlt' & _) | [(_ & _ & H') | [-> _]]];
    [congruence | | reflexivity].
  destruct (steer_frequency_cases _ _ _ _ _ H') as [(nf & _ & -> & _) | [-> _]]; reflexivity.
Qed.

(* ... and nothing at all happens after the exit. *)
Theorem C01_nothing_after_exit : forall ar c ops1 ops2 s,
  (forall s', snd (run ar c s ops1) <> Ok s') ->
  run ar c s (ops1 ++ ops2) = run ar c s ops1.
Proof. exact run_stops. Qed.

(* "Has not yet synchronised" is the in_startup flag: an operation clears it exactly when it
   is a completed consensus update, and nothing sets it. *)
Theorem C01_startup_flag : forall ar c s o cs s',
  step ar c s o = (cs, Ok s') ->
  in_startup s' = in_startup s && negb (is_consensus_update o).
Proof.
  intros ar c s o cs s' H. rewrite (shape_startup _ _ _ _ _ _ _ _ (step_shape _ _ _ _ _ _ H)).
  destruct (is_consensus_update o), (in_startup s); reflexivity.
Qed.

(* The flat call list the correspondence compares is the trace without its annotation. *)
Theorem C01_trace_is_run : forall ar c ops s,
  run ar c s ops = (flat_map snd (fst (trace ar c s ops)), snd (trace ar c s ops)).
Proof. exact run_trace. Qed.

(* What ntpd/src/daemon/clock.rs hands to the kernel: (seconds, nanos) of
   as_seconds_nanos is the step rounded down to a whole nanosecond. *)
Theorem C01_kernel_step : forall d, in_i64 d ->
  let (s, n) := d_secs_nanos d in
  s * 1000000000 + n = (d * 1000000000) / 2 ^ 32 /\ 0 <= n < 1000000000 /\
  - 2 ^ 31 <= s < 2 ^ 31.
Proof. exact d_secs_nanos_spec. Qed.

(* non-vacuity: asymmetric thresholds, startup step then later steps up to the accumulated
   threshold, then the exit *)
Example C01_nonvacuous :
  let c := {| c_startup := {| fwd := None; bwd := Some (1800 * 2 ^ 32) |};
              c_single := {| fwd := Some (1000 * 2 ^ 32 + 1); bwd := Some (500 * 2 ^ 32) |};
              c_acc := Some (1500 * 2 ^ 32);
              c_step_threshold := c_step_threshold witness_cfg; c_slew_max := c_slew_max witness_cfg;
              c_slew_min_dur := 8%float; c_max_freq := c_max_freq witness_cfg; c_off_thr := 2%float;
              c_off_left := 1%float; c_freq_thr := 0%float; c_freq_left := 0%float |} in
  let ops := [Update (Some {| e_off := 1700%float; e_freq := 0%float; e_p00 := 1%float; e_p11 := 0%float |}) true;
              SteerOffset 1000%float 0%float; SteerOffset (-499)%float 0%float; SteerOffset 2%float 0%float] in
  let t := trace repo_arith c (init_st 0%float) ops in
  cfg_wf c /\ neg_ok repo_arith (c_startup c) /\ neg_ok repo_arith (c_single c) /\
  startup_steps (fst t) = [1699 * 2 ^ 32] /\
  later_steps (fst t) = [1000 * 2 ^ 32; - (499 * 2 ^ 32)] /\
  (exists p, snd t = Panic p /\ is_exit p = true).
Proof.
  vm_compute. repeat split; try discriminate; try (right; discriminate).
  eexists; split; reflexivity.
Qed.

Print Assumptions C01_startup_steps.
Print Assumptions C01_single_steps.
Print Assumptions C01_accumulated.
Print Assumptions C01_accumulated_saturating.
Print Assumptions C01_accumulated_finite_backward.
Print Assumptions C01_accumulated_refuted.
Print Assumptions C01_accumulated_is_sum.
Print Assumptions C01_exit_instead_of_step.
Print Assumptions C01_no_step_when_stopping.
Print Assumptions C01_slew_does_not_step.
Print Assumptions C01_nothing_after_exit.
Print Assumptions C01_startup_flag.
Print Assumptions C01_trace_is_run.
Print Assumptions C01_kernel_step.
