(* C41  PTP messages survive a serialise/parse round trip.
   Property theorems; the lemmas they rest on are in Proofs/PtpWire*.v, Proofs/TlvSet.v.
   Model: Model/PtpWire.v (34-byte header, all ten message bodies, TLV sets as validated byte
   strings, the TLV set builder); it follows branch fix-c41 of the code. *)
From V Require Import Model.PtpWire Proofs.TlvSet Proofs.PtpWireMsg Proofs.PtpWireDeSer4.

(* Serialise then parse.  For every header, body (all ten types) and list of TLVs whose fields
   are within the ranges of their Rust types (header_ok, body_ok, tlv_ok: no other hypothesis --
   in particular enumeration values without a wire code and TLV values of odd length are
   allowed, the serialiser and the builder refuse them), every size of the builder's backing
   buffer, every output buffer (any length, any previous content) and any bytes following the
   written message: if the builder accepts the TLVs and the message serialises, the written
   bytes parse back to exactly that message.  TLV sets ending in an empty-valued TLV are
   included (C41_nonvacuous). *)
Theorem C41_ser_de : forall h b ts cap set buf out pad,
  header_ok h -> body_ok b -> Forall tlv_ok ts ->
  build_tlvs cap ts = Ok set ->
  msg_serialize (mkMsg h b set) buf = Ok out ->
  msg_deserialize (out ++ pad) = Ok (mkMsg h b set).
Proof. intros. eapply msg_ser_de; eauto. eapply built_valid; eauto. Qed.

(* the same for any validated TLV set (what the parser returns, TlvSet::default()) *)
Theorem C41_ser_de_valid_set : forall h b set buf out pad,
  header_ok h -> body_ok b -> tlv_valid set ->
  msg_serialize (mkMsg h b set) buf = Ok out ->
  msg_deserialize (out ++ pad) = Ok (mkMsg h b set).
Proof. exact msg_ser_de. Qed.

(* Parsing any byte string (no length bound) terminates without a panic: the result is an error
   or a message whose TLV set is valid, and iterating that set never reaches the iterator's unwrap *)
Theorem C41_total : forall buf,
  (exists e, msg_deserialize buf = Err e) \/
  (exists m, msg_deserialize buf = Ok m /\ tlv_valid (m_suffix m) /\ exists l, tlvs (m_suffix m) = Ok l).
Proof.
  intros buf. destruct (msg_deserialize_cases buf) as [E|[m [E V]]]; [left; exact E|].
  right. exists m. split; [exact E|]. split; [exact V|]. apply tlvs_valid_ok. exact V.
Qed.

(* Parse then serialise.  For every byte string (bytes 0..255, any length) that parses, the parsed
   message serialises into any zeroed buffer that is long enough, and the result is the parsed
   prefix (the first message_length bytes) under the fixed mask [normalise] of Model/PtpWire.v:
   header flag bits 3, 4, 7 of byte 6 and bit 7 of byte 7, bytes 16-19 and the control byte 32 are
   written as zero; so are bytes 44-53 of a peer-delay request, byte 46 of an announce and byte
   44 of a management message; byte 49 of an announce (clock accuracy) and byte 47 of a
   management message (action) are written with the code of the value they were read as
   (reserved accuracies as 0, actions above 5 as 5); every other position, including all TLVs,
   is reproduced exactly. *)
Theorem C41_de_ser : forall buf m n,
  bytes_ok buf -> msg_deserialize buf = Ok m -> (message_length buf <= n)%nat ->
  msg_serialize m (repeat 0 n) = Ok (normalise (firstn (message_length buf) buf)).
Proof. intros buf m n Hb H Hn. exact (proj1 (msg_de_ser buf m n Hb H Hn)). Qed.

(* literal equality when the input has the reserved positions zero and canonical codes *)
Theorem C41_de_ser_literal : forall buf m n,
  bytes_ok buf -> msg_deserialize buf = Ok m -> (message_length buf <= n)%nat ->
  normalise (firstn (message_length buf) buf) = firstn (message_length buf) buf ->
  msg_serialize m (repeat 0 n) = Ok (firstn (message_length buf) buf).
Proof. intros buf m n Hb H Hn E. rewrite <- E. apply C41_de_ser; assumption. Qed.

(* parse, serialise, parse again: the same message *)
Theorem C41_deser_ser_deser : forall buf m n,
  bytes_ok buf -> msg_deserialize buf = Ok m -> (message_length buf <= n)%nat ->
  exists out, msg_serialize m (repeat 0 n) = Ok out /\ msg_deserialize out = Ok m.
Proof.
  intros buf m n Hb H Hn. destruct (msg_de_ser buf m n Hb H Hn) as (S & Hh & Hbo & Hv).
  eexists. split; [exact S|]. destruct m as [h b sf]. cbn [m_header m_body m_suffix] in *.
  rewrite <- (app_nil_r (normalise _)). eapply msg_ser_de; eauto.
Qed.

(* non-vacuity: a Sync with a TLV set [type 3, value 01 02][Pad, empty value] -- a set that ends in
   an empty-valued TLV -- is built, serialised into a dirty buffer and parsed back; an
   odd-length value is refused by the builder; an announce message whose time source has no wire
   code is refused by the serialiser *)
Definition ex_header : header :=
  mkHeader 768 2 1 128 false true true false false true false false true false false false (-65536)
           (mkPid [1; 2; 3; 4; 5; 6; 7; 8] 9) 513 127.
Example C41_nonvacuous :
  (exists set out, build_tlvs 10 [(3, [1; 2]); (32776, [])] = Ok set
     /\ msg_serialize (mkMsg ex_header (Sync (mkTs (2 ^ 48 - 1) 1000000000)) set) (repeat 165 60) = Ok out
     /\ length out = 54%nat
     /\ msg_deserialize (out ++ [9; 9]) = Ok (mkMsg ex_header (Sync (mkTs (2 ^ 48 - 1) 1000000000)) set))
  /\ build_tlvs 10 [(3, [1; 2; 3])] = Err E_INVALID
  /\ msg_serialize (mkMsg ex_header (Announce (mkTs 1 2) 37 1 (mkCq 6 (AccNamed 33) 100) 2 [1;2;3;4;5;6;7;8] 3 (TsReserved 16)) [])
                   (repeat 0 64) = Err E_INVALID.
Proof.
  split; [do 2 eexists; split; [vm_compute; reflexivity|split; [vm_compute; reflexivity|split; vm_compute; reflexivity]]|].
  split; vm_compute; reflexivity.
Qed.

(* a management message with reserved bits and bytes set, an action code above 5 and two bytes of
   padding parses; it re-serialises to the masked prefix, which differs from the input *)
Definition ex_mgmt : bytes :=
  [13; 18; 0; 52; 7; 0; 255; 255; 0; 0; 0; 0; 0; 1; 0; 0; 9; 9; 9; 9; 1; 2; 3; 4; 5; 6; 7; 8; 0; 1; 0; 5; 9; 250;
   8; 7; 6; 5; 4; 3; 2; 1; 0; 2; 77; 3; 2; 200; 0; 3; 0; 0; 99; 99].
Example C41_nonvacuous_de_ser :
  exists m, msg_deserialize ex_mgmt = Ok m
    /\ msg_serialize m (repeat 0 52) = Ok (normalise (firstn (message_length ex_mgmt) ex_mgmt))
    /\ normalise (firstn (message_length ex_mgmt) ex_mgmt) <> firstn (message_length ex_mgmt) ex_mgmt
    /\ length (normalise (firstn (message_length ex_mgmt) ex_mgmt)) = 52%nat.
Proof. eexists. split; [vm_compute; reflexivity|]. split; [vm_compute; reflexivity|]. split; [vm_compute; discriminate|vm_compute; reflexivity]. Qed.

Print Assumptions C41_ser_de.
Print Assumptions C41_ser_de_valid_set.
Print Assumptions C41_total.
Print Assumptions C41_de_ser.
Print Assumptions C41_de_ser_literal.
Print Assumptions C41_deser_ser_deser.
