(* C14  Building a poll request never fails.
   The lemmas behind the theorems are in Proofs/SourcePoll.v.

   The only panic site on the poll-building path is
   `.expect("Internal error: could not serialize packet")` in handle_timer; the
   model's [step_timer] returns [Panic] exactly when serialisation into the
   1024-byte buffer would fail: the request does not fit, or a field value is
   longer than u16::MAX - 4.  [stash_ok]: at most MAX_COOKIES cookies, each of a
   length >= 0 -- any lengths. *)
From V Require Import Model.Source Gen.ConstSourceS2 Proofs.SourceBase Proofs.SourceIncoming Proofs.SourcePoll.

(* whatever cookies the client holds, whatever the version, NTS or not: handle_timer
   yields a request, Reset or Demobilize -- never the panic *)
Theorem C14_total : forall c s now d x,
  stash_ok (s_stash s) -> step_timer c s now d <> Panic x.
Proof. exact timer_total. Qed.

(* ... and a request that is sent fits the send buffer *)
Theorem C14_fits : forall c s now d s' acts r,
  step_timer c s now d = Ok (s', acts) -> In (Send r) acts -> r_len r <= SEND_BUFFER_SIZE.
Proof.
  intros c s now d s' acts r H I.
  destruct (step_timer_send _ _ _ _ _ _ _ H I) as [_ T]. apply T.
Qed.

(* along whole histories: the stash stays well formed (cookies of any non-negative
   length arriving), so no history reaches the panic, and every request fits *)
Theorem C14_run_total : forall c evs s x,
  stash_ok (s_stash s) -> Forall cookies_ok evs -> run c s evs <> Panic x.
Proof.
  intros c. induction evs as [|e evs IH]; intros s x S K; simpl; [discriminate|].
  inversion K as [|? ? Ke Kr]; subst.
  destruct (step c s e) as [[s1 a]| |] eqn:H.
  - pose proof (step_stash_ok _ _ _ _ _ Ke S H) as S1.
    specialize (IH s1 x S1 Kr).
    destruct (run c s1 evs) as [[s2 tr]| |]; try discriminate.
    intros E. injection E as ->. now apply IH.
  - discriminate.
  - destruct e as [now d|now op]; simpl in H; [|discriminate].
    exfalso. eapply timer_total; eauto.
Qed.

(* every request of every history fits the send buffer *)
Theorem C14_run_fits : forall c evs s s' tr,
  run c s evs = Ok (s', tr) ->
  Forall (fun a => match a with Send r => r_len r <= SEND_BUFFER_SIZE | _ => True end) (concat tr).
Proof.
  intros c evs s s' tr H.
  refine (proj2 (run_forall (fun _ => True) (fun _ => True)
                   (on_send (fun r => r_len r <= SEND_BUFFER_SIZE)) c _ evs s s' tr (Forall_trivial _) I H)).
  intros s0 e s1 a _ _ H1. split; [trivial|]. apply Forall_on_send. intros r Hr.
  destruct (step_send _ _ _ _ _ _ H1 Hr) as (now & d & _ & _ & T). apply T.
Qed.

(* the size arithmetic: closed formula for the serialised request, and its bound
   for every cookie length and every number n of cookie fields (1 cookie + n-1
   placeholders) the margin computation of handle_timer lets through *)
Theorem C14_size_formula : forall nts v5 clen n,
  request_size nts v5 clen n =
  48 + (if nts then 36 + n * (((Z.max 16 (clen + 4) + 3) / 4) * 4) + (if v5 then 48 else 0) + 40
        else if v5 then 48 else 0).
Proof. exact request_size_formula. Qed.

(* at most MAX_REQUEST bytes, and the cookie itself fits what the margin leaves *)
Theorem C14_size_bound : forall v5 clen n,
  0 <= clen -> 1 <= n <= 8 -> n <= (SEND_BUFFER_SIZE - COOKIE_MARGIN) / Z.max clen 1 ->
  request_size true v5 clen n <= MAX_REQUEST /\ clen <= SEND_BUFFER_SIZE - COOKIE_MARGIN.
Proof. exact request_fits. Qed.

(* non-vacuity: the longest request (NTPv5, cookies of 90 bytes, empty stash after the
   get: 8 cookie fields) has 940 bytes; a 725-byte cookie asks for a reset; a 724-byte one is sent;
   a plain NTPv5 request has 96 bytes; MAX_REQUEST is below the buffer size *)
Example C14_nonvacuous :
  c14_case (1, 2, 90, 1) = (0, 940) /\ c14_case (1, 2, 725, 8) = (1, 0) /\ c14_case (1, 0, 724, 8) = (0, 852)
  /\ c14_case (0, 2, 0, 0) = (0, 96) /\ MAX_REQUEST <= SEND_BUFFER_SIZE.
Proof. vm_compute. repeat split; discriminate. Qed.

(* census of the panic sites the model accounts for on the poll-building path (regenerated from the
   sources on every run): one `expect` on serialize in handle_timer; the reference-id request of the
   NTPv5 poll has a payload of BLOOM_CHUNK_SIZE bytes, a multiple of 4 (ReferenceIdRequest::serialize asserts it);
   the buffer NtpSource::new allocates has the size the model uses *)
Example C14_panic_site_census : TIMER_EXPECT_SITES = 1 /\ BLOOM_CHUNK_SIZE mod 4 = 0 /\ SEND_BUFFER_SIZE_NEW = SEND_BUFFER_SIZE.
Proof. repeat split; reflexivity. Qed.

Print Assumptions C14_total.
Print Assumptions C14_fits.
Print Assumptions C14_run_total.
Print Assumptions C14_run_fits.
Print Assumptions C14_size_formula.
Print Assumptions C14_size_bound.
