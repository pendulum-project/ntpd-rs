(* C21  Server statistics account for every datagram exactly once.
   The lemmas about the decision model and the counters are in Proofs/Server.v.

   [handle] is the decision model of Server::handle (Model/Server.v) over the summary of the parsed
   datagram, every policy configuration, cache state and buffer outcome ([e_ser_ok e] = the answer
   fits the caller's buffer); [o_regs r] are the ServerStatHandler::register calls of one `handle`,
   [o_out r] is what was sent.  [register]/[register_all] model ServerStats::register of the daemon
   (eleven AtomicU64 counters, wrapping at 2^64). *)
From V Require Import Model.Server Proofs.Server.
From V Require Import Gen.ConstServer.

(* Exactly one registration on every path (early ignore, parse error, wrong mode, version not
   accepted, NTS required, answer sent, serialisation failure) ... *)
Theorem C21_exactly_one : forall h cfg c e rq r,
  handle h cfg c e rq = Ok r -> length (o_regs r) = 1%nat.
Proof.
  intros h cfg c e rq r H. destruct (handle_one_registration _ _ _ _ _ _ H) as (v & n & w & a & Hr & _).
  rewrite Hr. reflexivity.
Qed.

(* ... and its response is what was carried out: ProvideTime iff a time answer was sent, Deny iff a DENY kiss,
   NTSNak iff a NAK, Ignore iff nothing. *)
Theorem C21_kind_matches : forall h cfg c e rq r,
  handle h cfg c e rq = Ok r ->
  exists v n w a, o_regs r = [(v, n, w, a)] /\
    (a = RProvideTime <-> o_out r = ORespond ATime) /\
    (a = RDeny <-> o_out r = ORespond ADenyKiss) /\
    (a = RNak <-> o_out r = ORespond ANak) /\
    (a = RIgnore <-> o_out r = OIgnore).
Proof. exact handle_one_registration. Qed.

(* The NTS flag: never set for an undecodable datagram nor for a plain request (decoded, no cookie);
   set for every NTS request (decoded with a cookie that authenticates) that is answered; for a
   request whose authenticator fails it is set when the NAK is sent and not when policy answers with a
   DENY kiss -- and also when the NAK could not be serialised (then nothing is sent and the reason is
   InternalError; reading of DESIGN.md section 5). *)
Theorem C21_nts_flag : forall h cfg c e rq r v n w a,
  handle h cfg c e rq = Ok r -> o_regs r = [(v, n, w, a)] ->
  (r_parse rq = PErr -> n = false) /\
  (r_parse rq = POk -> r_cookie rq = false -> n = false) /\
  (r_parse rq = POk -> r_cookie rq = true -> o_out r <> OIgnore -> n = true) /\
  (r_parse rq = PDecrypt ->
     (o_out r = ORespond ANak -> n = true) /\
     (o_out r = ORespond ADenyKiss -> n = false) /\
     (n = true -> o_out r = ORespond ANak \/ (o_out r = OIgnore /\ w = InternalError))).
Proof.
  intros h cfg c e rq r v n w a H Hr.
  destruct (handle_cases h cfg c e rq) as (c1 & act & why & Hi & [(w1 & E & _)|(_ & _ & a0 & w0 & ck & RC & E)]);
    rewrite E in H.
  - injection H as <-. inversion Hr; subst. cbn. repeat split; intros; congruence.
  - pose proof (intended_never_nak _ _ _ _ _ _ _ Hi) as Hnn.
    destruct (respond_shape _ _ _ _ _ _ _ _ H) as (_ & v1 & n1 & w1 & a1 & Hr1 & S).
    rewrite Hr in Hr1. injection Hr1 as ? ? ? ?. subst v1 n1 w1 a1. unfold respond_call in RC.
    destruct RC as [(P & -> & -> & ->)|(P & -> & [(_ & -> & _)|(_ & -> & _)])]; cbn [orb response_eqb] in S.
    + assert (Q : response_eqb act RNak = false) by (destruct act; try reflexivity; congruence).
      rewrite Q, Bool.orb_false_r in S. clear - S P. intuition congruence.
    + clear - S P. intuition congruence.
    + clear - S P. intuition congruence.
Qed.

(* The daemon's counters after any sequence of registrations, from zero: each is the number of
   registrations of its class (mod 2^64); response_send_errors is not touched by `register`. *)
Theorem C21_counters : forall l,
  let s := register_all stats0 l in
  received s = wrap 64 (Z.of_nat (count p_all l)) /\
  accepted s = wrap 64 (Z.of_nat (count p_accepted l)) /\
  denied s = wrap 64 (Z.of_nat (count p_denied l)) /\
  ignored s = wrap 64 (Z.of_nat (count p_ignored l)) /\
  rate_limited s = wrap 64 (Z.of_nat (count p_rate l)) /\
  nts_nak s = wrap 64 (Z.of_nat (count p_nak l)) /\
  nts_received s = wrap 64 (Z.of_nat (count p_nts l)) /\
  nts_accepted s = wrap 64 (Z.of_nat (count p_nts_accepted l)) /\
  nts_denied s = wrap 64 (Z.of_nat (count p_nts_denied l)) /\
  nts_rate_limited s = wrap 64 (Z.of_nat (count p_nts_rate l)) /\
  send_errors s = 0.
Proof. exact counters. Qed.

(* Every registration is counted in `received` and in exactly one of accepted / denied / ignored /
   rate-limited / nak; the NTS counters count sub-populations. *)
Theorem C21_counters_partition : forall l,
  (count p_all l = length l)%nat /\
  (count p_accepted l + count p_denied l + count p_ignored l + count p_rate l + count p_nak l = length l)%nat /\
  (count p_nts_accepted l <= count p_accepted l)%nat /\
  (count p_nts_denied l <= count p_denied l)%nat /\
  (count p_nts_rate l <= count p_rate l)%nat /\
  (count p_nts_accepted l + count p_nts_denied l + count p_nts_rate l <= count p_nts l)%nat.
Proof.
  intros l. unfold count. induction l as [|[[[v n] w] a] l IH]; [cbn; lia|].
  destruct IH as (I1 & I2 & I3 & I4 & I5 & I6).
  destruct a; [| |destruct w|]; destruct n; cbn [filter p_all p_accepted p_denied p_ignored p_rate p_nak p_nts p_nts_accepted p_nts_denied p_nts_rate
                         reg_nts reg_reason reg_resp response_eqb is_rate andb negb length]; lia.
Qed.

(* Over any history of datagrams through one server: as many registrations as datagrams, and the
   class counts equal the number of time answers, DENY kisses, NAKs and unanswered datagrams. *)
Theorem C21_history : forall h cfg l c c' rs,
  handle_all h cfg c l = Ok (c', rs) ->
  let regs := flat_map o_regs rs in
  length regs = length l /\
  count p_accepted regs = length (filter (out_is (ORespond ATime)) rs) /\
  count p_denied regs = length (filter (out_is (ORespond ADenyKiss)) rs) /\
  count p_nak regs = length (filter (out_is (ORespond ANak)) rs) /\
  (count p_ignored regs + count p_rate regs)%nat = length (filter (out_is OIgnore) rs).
Proof.
  intros h cfg l c c' rs H. pose proof (handle_all_length _ _ _ _ _ _ H) as Hl. pose proof (handle_all_each _ _ _ _ _ _ H) as Hf.
  cbv zeta. rewrite <- Hl. clear H Hl.
  unfold count, out_is in *. induction Hf as [|r rs (c0 & e & rq & Hh) Hf IH]; [cbn; auto|].
  destruct IH as (I1 & I2 & I3 & I4 & I5).
  destruct (handle_one_registration _ _ _ _ _ _ Hh) as (v & n & w & a & Hr & K1 & K2 & K3 & K4).
  cbn [flat_map]. rewrite Hr. cbn [app filter length].
  destruct a.
  - rewrite (proj1 K3 eq_refl). cbn. lia.
  - rewrite (proj1 K2 eq_refl). cbn. lia.
  - rewrite (proj1 K4 eq_refl). destruct w; cbn; lia.
  - rewrite (proj1 K1 eq_refl). cbn. lia.
Qed.

(* non-vacuity: a NAK that does not fit the buffer is registered once, as InternalError/Ignore with the
   NTS flag; counters after four registrations. *)
Example C21_nonvacuous :
  (exists r, handle (fun a => a)
       {| c_deny_action := FDeny; c_allow_action := FIgnore; c_require_nts := None; c_accepted := [V4]; c_cutoff := 0 |}
       (new_cache 0)
       {| e_addr := 1; e_in_deny := false; e_in_allow := true; e_now := 0; e_ser_ok := false; e_buf_ge4 := true;
          e_lock_ok := true; e_clock_ok := true; e_keys_ok := true; e_root_delay_nonneg := true |}
       {| r_fbv := 4; r_parse := PDecrypt; r_ver := V4; r_client := true; r_cookie := false |} = Ok r
     /\ o_regs r = [(4, true, InternalError, RIgnore)] /\ o_out r = OIgnore)
  /\ stats_run [(1, 4, 3); (0, 0, 2); (1, 2, 0); (0, 4, 1)] = [4; 1; 1; 0; 1; 0; 2; 1; 0; 0; 1].
Proof. split; [eexists; split; [vm_compute; reflexivity|split; reflexivity]|vm_compute; reflexivity]. Qed.

(* census, regenerated from the sources on every run: the handler has one registration call per modelled exit
   (6 early exits of handle_inner + both arms of the serialisation match in `handle`), the daemon has eleven
   counters and one call of Server::handle. *)
Example C21_site_census :
  SRV_REGISTER_CALLS = 8 /\ SRV_HANDLE_REGISTER_CALLS = 2 /\ DAEMON_STATS_COUNTERS = 11 /\ DAEMON_HANDLE_CALLS = 1.
Proof. repeat split; reflexivity. Qed.

Print Assumptions C21_exactly_one.
Print Assumptions C21_kind_matches.
Print Assumptions C21_nts_flag.
Print Assumptions C21_counters.
Print Assumptions C21_counters_partition.
Print Assumptions C21_history.
