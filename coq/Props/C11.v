(* C11  Unreachable sources are reset, responsive sources are kept.
   The lemmas behind the theorems are in Proofs/SrcCore.v and Proofs/SrcReach.v.  Model:
   Model/SrcCore.v (reach register, tries, deny flag, outstanding request of
   NtpSource; datagram classes Usable / DenyKiss / Other are inputs).
   Vocabulary (Model/SrcSpec.v): [hist_run] is the ghost record of poll
   attempts of a history, newest first, each marked with whether a usable
   answer followed it before the next attempt; [bits 8 h] is the number whose
   binary digits are the first eight marks; [since_last h] the attempts since
   the last usable answer. *)
From V Require Import Model.SrcSpec Proofs.SrcCore Proofs.SrcReach.

(* The register is the 8-attempt window of the record (bit i = was the i-th most
   recent attempt answered), tries counts the attempts, and the reported number
   of missed polls is the number of attempts since the last usable answer,
   at most 8 (and 8 as long as there never was one). *)
Theorem C11_reach_abs : forall (C : Type) (dflt : C) (clen : C -> Z)
    (evs : list (event C)) (with_nts : bool),
  let st := final dflt clen (src_new dflt with_nts) evs in
  let h := hist_run dflt clen [] (src_new dflt with_nts) evs in
  reach st = bits 8 h /\
  tries st = Z.min (Z.of_nat (length h)) usize_max /\
  unanswered_polls st = match since_last h with Some k => Z.min 8 k | None => 8 end.
Proof.
  intros. destruct (reach_abs_run dflt clen evs [] _ (reach_abs_new dflt with_nts)) as (Hr & Ht & _).
  fold st h in Hr, Ht. repeat split; auto.
  unfold unanswered_polls, tz8. rewrite Hr. apply (tz_bits 8).
Qed.

(* bit i of the window is the mark of the i-th most recent attempt *)
Theorem C11_bits_are_marks : forall n h i, (i < n)%nat ->
  Z.testbit (bits n h) (Z.of_nat i) = nth i h false.
Proof.
  induction n; intros h i Hi; [lia|].
  destruct h as [|b t]; [change (bits (S n) []) with 0; rewrite Z.testbit_0_l; destruct i; reflexivity|].
  cbn [bits]. replace ((if b then 1 else 0) + 2 * bits n t) with (2 * bits n t + Z.b2z b)
    by (destruct b; cbn [Z.b2z]; lia).
  destruct i as [|i].
  - simpl Z.of_nat. rewrite Z.testbit_0_r. reflexivity.
  - rewrite Nat2Z.inj_succ, Z.testbit_succ_r by lia. simpl nth. apply IHn. lia.
Qed.

(* The reset is due exactly when at least three attempts were made and none of
   the last eight was answered usably; on reachable states that means: the
   first three attempts all went unanswered, or the last eight did. *)
Theorem C11_reset_conditions : forall (C : Type) (dflt : C) (clen : C -> Z)
    (evs : list (event C)) (with_nts : bool),
  let st := final dflt clen (src_new dflt with_nts) evs in
  let h := hist_run dflt clen [] (src_new dflt with_nts) evs in
  (reset_due st = true <-> (3 <= length h)%nat /\ none_answered 8 h) /\
  ((3 <= length h)%nat /\ none_answered 8 h <->
   h = [false; false; false] \/ ((8 <= length h)%nat /\ none_answered 8 h)).
Proof. exact @reset_due_iff. Qed.

(* When it is due, the next timer returns exactly Reset, or Demobilize if the
   deny flag is set, and changes nothing ... *)
Theorem C11_reset : forall (C : Type) (dflt : C) (clen : C -> Z) (st : src C),
  reset_due st = true ->
  handle_timer dflt clen st = ((if deny st then [Demobilize] else [Reset]), st).
Proof. exact @reset_action. Qed.

(* ... and until a usable answer arrives nothing further is sent: every later
   event yields no action, or the single action Reset / Demobilize. *)
Theorem C11_nothing_further : forall (C : Type) (dflt : C) (clen : C -> Z)
    (evs : list (event C)) (st : src C),
  reset_due st = true -> no_usable evs ->
  forall a s', In (a, s') (run dflt clen st evs) -> a = [] \/ a = [Reset] \/ a = [Demobilize].
Proof. exact @reset_nothing_further. Qed.

(* The deny flag of a plain source is set iff a DENY/RSTR answer to the
   outstanding request was seen and no usable answer since (for an NTS source
   such an answer is authenticated and demobilises at once: Model/SrcCore.v
   handle_deny). *)
Theorem C11_deny_flag : forall (C : Type) (dflt : C) (clen : C -> Z) (evs : list (event C)),
  let st0 := src_new dflt false in
  deny (final dflt clen st0 evs) = true <->
  exists e1 e2, evs = e1 ++ DenyKiss :: e2 /\ pending (final dflt clen st0 e1) = true /\ no_usable e2.
Proof. intros C dflt clen evs st0. apply deny_flag_from; reflexivity. Qed.

(* A plain source, after any history: its next timer resets (demobilises if
   denied) without changing state iff three attempts were made and none of the
   last eight was answered; in every other case it sends a request. *)
Theorem C11_plain_timer : forall (C : Type) (dflt : C) (clen : C -> Z) (evs : list (event C)),
  let st := final dflt clen (src_new dflt false) evs in
  let h := hist_run dflt clen [] (src_new dflt false) evs in
  (fst (handle_timer dflt clen st) = (if deny st then [Demobilize] else [Reset]) /\
   snd (handle_timer dflt clen st) = st
   <-> (3 <= length h)%nat /\ none_answered 8 h) /\
  (~ ((3 <= length h)%nat /\ none_answered 8 h) -> fst (handle_timer dflt clen st) = [SendPlain]).
Proof.
  intros. destruct (reset_due_iff dflt clen evs false) as [H1 _]. fold st h in H1.
  assert (Hs : nts st = None) by (apply plain_final; reflexivity).
  rewrite <- H1. split; [split|].
  - intros [Ha _]. destruct (reset_due st) eqn:Hd; [reflexivity|].
    rewrite (timer_plain dflt clen st Hs Hd) in Ha. destruct (deny st); discriminate.
  - intros Hd. rewrite reset_action by assumption. auto.
  - intros Hn. destruct (reset_due st) eqn:Hd; [tauto|].
    rewrite (timer_plain dflt clen st Hs Hd). reflexivity.
Qed.

(* A plain source whose every request is answered usably before the next timer
   is never reset or demobilised, whatever else arrives in between. *)
Theorem C11_never_reset_if_answering : forall (C : Type) (dflt : C) (clen : C -> Z)
    (evs : list (event C)),
  prompt false evs ->
  forall o, In o (run dflt clen (src_new dflt false) evs) -> existsb is_reset (fst o) = false.
Proof.
  intros C dflt clen evs Hp.
  apply (prompt_no_reset dflt clen evs false); [split; [reflexivity|left; reflexivity]|exact Hp].
Qed.

(* non-vacuity: three unanswered polls -> Reset at the fourth timer; one answer,
   then eight unanswered polls -> Reset at the ninth; with a DENY in between ->
   Demobilize; the register reads 0b00000100 two polls after an answer; a history
   that answers every poll before the next timer is prompt *)
Example C11_nonvacuous :
  let out evs := map (fun o => fst o) (run tc_dflt tc_len (src_new tc_dflt false) evs) in
  out [E_timer; E_timer; E_timer; E_timer] = [[SendPlain]; [SendPlain]; [SendPlain]; [Reset]]
  /\ nth 9 (out ([E_timer; E_usable []] ++ repeat E_timer 9)) [] = [SendPlain]
  /\ nth 10 (out ([E_timer; E_usable []] ++ repeat E_timer 9)) [] = [Reset]
  /\ nth 11 (out ([E_timer; E_usable []; E_timer; E_deny] ++ repeat E_timer 8)) [] = [Demobilize]
  /\ reach (final tc_dflt tc_len (src_new tc_dflt false) [E_timer; E_usable []; E_timer; E_timer]) = 4
  /\ prompt false [E_timer; E_other; E_usable []; E_timer; E_usable []; E_deny].
Proof. vm_compute. repeat split. Qed.

Print Assumptions C11_reach_abs.
Print Assumptions C11_bits_are_marks.
Print Assumptions C11_reset_conditions.
Print Assumptions C11_reset.
Print Assumptions C11_nothing_further.
Print Assumptions C11_deny_flag.
Print Assumptions C11_plain_timer.
Print Assumptions C11_never_reset_if_answering.
