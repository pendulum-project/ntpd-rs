(* C45  CSPTP servers answer only requests, with correct echoes.
   Property theorems; the lemmas they rest on are in Proofs/Csptp.v.  The model (Model/Csptp.v) is
   handle_packet over byte strings: the datagram is parsed by the model of
   CsptpMessage::deserialize (Model/CsptpMsg.v, Model/PtpWire.v); the result lists the datagrams
   handed to ServerSocket::send_event (channel 0) and send_general (channel 1).  The server
   state (grandmaster data, flags, leap indicator) and the result of send_event are arbitrary. *)
From V Require Import Model.Csptp Proofs.Csptp.

(* every datagram, reception time, server state and send_event result: no panic site is reached *)
Theorem C45_total : forall st pkt recv_ts se, exists l, handle_packet st pkt recv_ts se = Ok l.
Proof. intros. destruct (handle_packet_handled st pkt recv_ts se) as [l [H _]]. eauto. Qed.

(* anything is sent only for a well-formed CSPTP request: the datagram parses as a PTP message
   with sdoId 0x300 and major version 2, a Sync body, exactly one CSPTP request TLV (with a flags
   octet) and no CSPTP response TLV (wf_request, Proofs/Csptp.v) *)
Theorem C45_only_requests : forall st pkt recv_ts se l,
  handle_packet st pkt recv_ts se = Ok l -> l <> [] -> exists req, wf_request pkt req.
Proof.
  intros st pkt recv_ts se l H Hne. apply handled_of in H.
  destruct H; [congruence| |]; eexists; eapply request_is_wf; eauto.
Qed.

(* the answer is the serialisation of a Sync with sdoId 0x300, the request's domain and sequence
   id, the two-step flag, and whose first TLV is a response TLV that reads back as (reception time
   of the request, correction field of the request); it goes to send_event *)
Theorem C45_echo : forall st pkt recv_ts se ch d1 rest,
  handle_packet st pkt recv_ts se = Ok ((ch, d1) :: rest) -> ts_ok recv_ts ->
  exists req resp extra,
    wf_request pkt req /\ ch = CH_EVENT
    /\ msg_serialize resp (zero_buf Gen.ConstCsptp.MAX_MESSAGE_SIZE) = Ok d1
    /\ h_sdo (m_header resp) = 768
    /\ h_domain (m_header resp) = h_domain (m_header req)
    /\ h_seq (m_header resp) = h_seq (m_header req)
    /\ h_two_step (m_header resp) = true
    /\ (exists origin, m_body resp = Sync origin)
    /\ tlvs (m_suffix resp) = Ok (resp_tlv_make (mkRespTlv recv_ts (h_correction (m_header req))) :: extra)
    /\ find_map resp_tlv_try (resp_tlv_make (mkRespTlv recv_ts (h_correction (m_header req))) :: extra)
       = Some (mkRespTlv recv_ts (h_correction (m_header req))).
Proof. exact echo. Qed.

(* when send_event fails nothing else is sent; when it reports the send time, exactly one more
   datagram goes to send_general: the serialisation of a follow-up with sdoId 0x300, the
   request's domain and sequence id, the two-step flag, no TLVs, carrying that send time *)
Theorem C45_follow_up : forall st pkt recv_ts se l,
  handle_packet st pkt recv_ts se = Ok l -> l <> [] ->
  match se with
  | None => exists d1, l = [(CH_EVENT, d1)]
  | Some send_ts =>
      exists req d1 d2 fu,
        wf_request pkt req /\ l = [(CH_EVENT, d1); (CH_GENERAL, d2)]
        /\ msg_serialize fu (zero_buf Gen.ConstCsptp.MAX_MESSAGE_SIZE) = Ok d2
        /\ m_body fu = FollowUp send_ts /\ m_suffix fu = []
        /\ h_sdo (m_header fu) = 768
        /\ h_domain (m_header fu) = h_domain (m_header req)
        /\ h_seq (m_header fu) = h_seq (m_header req)
        /\ h_two_step (m_header fu) = true
  end.
Proof.
  intros st pkt recv_ts se l H Hne. apply handled_of in H.
  destruct H as [|req resp d1 Hd Hr Hn Hs1 Hse|req resp d1 send_ts fu d2 Hd Hr Hn Hs1 Hse Hfu Hs2]; [congruence| |].
  - (* the answer alone *) subst se. eexists. reflexivity.
  - (* the answer and its follow-up *) subst se. exists req, d1, d2, fu. subst fu.
    split; [exact (request_is_wf _ _ Hd Hr)|]. repeat split; auto.
Qed.

(* non-vacuity: the client's own request (domain 128, sequence id 7) is answered with two
   datagrams; the same bytes with sdoId 0x301 are not answered *)
Definition ex_state : server_state := mkSrv 128 (mkCq 6 (AccNamed 33) 20000) 128 1 [1;2;3;4;5;6;7;8] true true false 1.
Definition ex_request : bytes :=
  ser_header (csptp_header 128 7) 0 52 ++ ts_ser (mkTs 0 0) ++ tlv_ser (req_tlv_make true false).
Example C45_nonvacuous :
  (exists d1 d2, handle_packet ex_state ex_request (mkTs 1700000000 5) (Some (mkTs 1700000000 900)) = Ok [(0, d1); (1, d2)]
                 /\ length d1 = 88%nat /\ length d2 = 44%nat)
  /\ handle_packet ex_state (ser_header (mkHeader 769 2 1 128 false false true false false false false false false false false false 0 zero_pid 7 127) 0 52
                             ++ ts_ser (mkTs 0 0) ++ tlv_ser (req_tlv_make true false)) (mkTs 1700000000 5) None = Ok [].
Proof.
  split; [do 2 eexists; split; [vm_compute; reflexivity|split; reflexivity]|vm_compute; reflexivity].
Qed.

Print Assumptions C45_total.
Print Assumptions C45_only_requests.
Print Assumptions C45_echo.
Print Assumptions C45_follow_up.
