(* C33  Advertised stratum and loop avoidance are consistent.
   Property theorems; the lemmas behind them in Proofs/Stratum.v; model Model/Stratum.v
   (accept_synchronization WITH the reference-id comparison of branch fix-c33,
   from_used_sources, update_used_sources).  [ids] = the ReferenceIds of the
   local addresses (from_ip is an oracle); [s_bloom s = Some b] with
   b = "the source's complete Bloom filter contains our server id". *)
From V Require Import Model.Bloom Model.Stratum Proofs.Bloom Proofs.Stratum.

(* A source is usable for synchronisation exactly when its stratum is below the
   local stratum, it is reachable, its Bloom filter (if complete) does not
   contain our server id, and - unless its stratum is 1 - neither its own id
   nor the reference id it reports is one of our addresses. *)
Theorem C33_usable_iff : forall ls ids s,
  accept_synchronization ls ids s = None <->
  s_stratum s < ls /\
  (s_stratum s <> 1 -> ~ In (s_source_id s) ids /\ ~ In (s_reference_id s) ids) /\
  s_bloom s <> Some true /\
  s_reach s <> 0.
Proof.
  (* the four tests in the order of the code: stratum, own address, Bloom filter, reach *)
  intros ls ids s. unfold accept_synchronization. pose proof (loop_test ids s) as L.
  destruct (Z.geb_spec (s_stratum s) ls) as [Hs|Hs]; [split; [discriminate|intros (H & _); lia]|].
  destruct (negb _ && existsb _ ids).
  { split; [discriminate|]. intros (_ & H & _). destruct L as [L _]. specialize (L eq_refl). tauto. }
  assert (N : s_stratum s <> 1 -> ~ In (s_source_id s) ids /\ ~ In (s_reference_id s) ids)
    by (destruct L as [_ L]; intuition discriminate).
  destruct (s_bloom s) as [[|]|]; [split; [discriminate|intros (_ & _ & H & _); congruence]| |];
    (destruct (Z.eqb_spec (s_reach s) 0) as [R|R];
     [split; [discriminate|intros (_ & _ & _ & H); contradiction]
     |split; [intros _; split; [lia|split; [exact N|split; [discriminate|exact R]]]|reflexivity]]).
Qed.

(* and the error reported names a true reason *)
Theorem C33_error_reason : forall ls ids s e,
  accept_synchronization ls ids s = Some e ->
  match e with
  | Stratum => ls <= s_stratum s
  | Loop => (s_stratum s <> 1 /\ (In (s_source_id s) ids \/ In (s_reference_id s) ids)) \/ s_bloom s = Some true
  | ServerUnreachable => s_reach s = 0
  | Distance => False
  end.
Proof.
  (* same order of tests as in C33_usable_iff *)
  intros ls ids s e. unfold accept_synchronization. pose proof (loop_test ids s) as L.
  destruct (Z.geb_spec (s_stratum s) ls) as [Hs|Hs]; [intros [= <-]; lia|].
  destruct (negb _ && existsb _ ids); [intros [= <-]; left; apply L; reflexivity|].
  destruct (s_bloom s) as [[|]|]; [intros [= <-]; auto| |];
    (destruct (Z.eqb_spec (s_reach s) 0); intros [= <-]; auto).
Qed.

(* "if it is this daemon itself" is implemented for sources of stratum other than
   1 only: a reachable stratum-1 source at one of our own addresses is accepted.
   (The stated property has no such exception; no safe small repair: a stratum-1
   server on the same host, reached over a loopback or local address, is a
   legitimate source.) *)
Theorem C33_self_stratum1_refuted :
  exists ls ids s, In (s_source_id s) ids /\ s_stratum s = 1 /\ accept_synchronization ls ids s = None.
Proof.
  exists 16, [2130706433], (mkSnap 1 2130706433 1196446464 1 None). repeat split. left. reflexivity.
Qed.

(* The advertisement computed from the used sources: stratum one more than the
   first (primary) source, saturating at 255, with that source's id as reference
   id; with no source the configured local stratum and the id XNON.  The
   advertised Bloom filter contains our own server id and every id contained in
   a used source's filter; nothing panics. *)
Theorem C33_advertise : forall ls sid used,
  id_ok sid -> Forall (fun g => length g = NBYTES) (filters_of used) ->
  exists p, from_used_sources ls sid used = Ok p /\
    (a_stratum p, a_reference_id p) =
      match used with
      | [] => (ls, REFID_NONE)
      | x :: _ => (Z.min (fst (first_of x) + 1) 255, snd (first_of x))
      end /\
    length (a_filter p) = NBYTES /\
    contains_id (a_filter p) sid = Ok true /\
    (forall g id, In g (filters_of used) -> id_ok id -> contains_id g id = Ok true ->
                  contains_id (a_filter p) id = Ok true).
Proof.
  intros ls sid used Hid Hfs. unfold from_used_sources.
  destruct (fold_bf_add_spec (filters_of used) bf_new bf_new_length Hfs) as [Lu Ku].
  destruct (add_id_contains _ sid Lu Hid) as (f' & E & L' & C1 & C2). rewrite E. cbn [res_bind].
  assert (M : forall g id, In g (filters_of used) -> id_ok id -> contains_id g id = Ok true ->
                          contains_id f' id = Ok true)
    by (intros g id Hin Hok Hc; apply C2; [exact Hok|]; apply (proj2 (Ku id Hok) g); assumption).
  destruct used as [|x r]; [|destruct (first_of x) as [st i]]; eexists; (split; [reflexivity|]);
    cbn [a_stratum a_reference_id a_filter fst snd]; auto.
Qed.

(* "Once its used sources have reported": when every used NTP source has a
   snapshot the daemon publishes the advertisement of the resolved list (PPS,
   sock and CSPTP sources count as stratum 0 with ids PPS, SOCK, CPTP); if one
   has not, the previously published snapshot stays. *)
Theorem C33_published : forall ls sid table pub used,
  (all_reported table used ->
     exists l, resolve table used = Some l /\
       update_used_sources ls sid table pub used = from_used_sources ls sid l) /\
  (~ all_reported table used -> update_used_sources ls sid table pub used = Ok pub).
Proof.
  intros. unfold update_used_sources. rewrite <- resolve_some_iff. split.
  - intros [l Hl]. exists l. rewrite Hl. auto.
  - intros H. destruct (resolve table used) eqn:E; [|reflexivity]. exfalso. eauto.
Qed.

(* The primary source of the advertisement is what the first used entry denotes: PPS, sock and
   CSPTP sources a fixed stratum-0 snapshot, an NTP source its snapshot in the table (the
   [None] arm asks nothing: resolve succeeded, so the lookup did). *)
Theorem C33_primary : forall table id ty r l, resolve table ((id, ty) :: r) = Some l ->
  exists x l', l = x :: l' /\
    x = match ty with
        | TPps => SExternal 0 REFID_PPS
        | TSock => SExternal 0 REFID_SOCK
        | TCsptp => SExternal 0 REFID_CSPTP
        | TNtp => match lookup table id with Some v => v | None => x end
        end.
Proof.
  intros table id ty r l H. apply resolve_cons_inv in H as (x & l' & -> & _ & D).
  exists x, l'. split; [reflexivity|]. destruct ty; try exact D. rewrite D. reflexivity.
Qed.

(* non-vacuity: the confirmed defect's input is refused; a clean source is
   accepted; advertisement of a stratum-2 primary, of a PPS primary, saturation *)
Example C33_nonvacuous :
  let me := 3232235777 (* 192.168.1.1 *) in
  accept_synchronization 16 [me] (mkSnap 2 167772161 me 1 None) = Some Loop
  /\ accept_synchronization 16 [me] (mkSnap 2 167772161 167772162 1 (Some false)) = None
  /\ accept_synchronization 16 [me] (mkSnap 1 167772161 me 1 None) = None
  /\ accept_synchronization 16 [me] (mkSnap 2 167772161 167772162 1 (Some true)) = Some Loop
  /\ run_c33 (CAdvertise 16 [(1,(2,77));(2,(255,78))] [[(1,2);(2,2)]; [(3,2)]; []; [(9,0);(1,2)]; [(2,2)]])
     = [3; 77; 1; 3; 77; 1; 16; REFID_NONE; 1; 1; REFID_PPS; 1; 255; 78; 1]
  /\ run_c33 (CEndToEnd 16 [me] [(1, 167772161, 2, 2, me); (2, 167772162, 2, 3, 5); (3, 167772163, 1, 0, 0)] [[(2,2);(1,2)]; [(3,2)]])
     = [0; 0; 0; 1; 0; -1; 4; 167772162; 1; 17; 167772163; 1].
Proof. vm_compute. repeat split. Qed.

Print Assumptions C33_usable_iff.
Print Assumptions C33_error_reason.
Print Assumptions C33_self_stratum1_refuted.
Print Assumptions C33_advertise.
Print Assumptions C33_published.
Print Assumptions C33_primary.
