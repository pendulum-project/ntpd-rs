(* The byte-string kit of Model/Bytes.v: lengths, slices (taking and dropping, twice and across an
   append), single-byte reads, well-formedness, reads inside a common prefix.  The packet proofs
   (Packet, RoundTrip, FixedPoint, Tamper, Tamper2) reason about bytes only through these. *)
From V Require Import Model.Bytes Proofs.Common.
From Coq Require Import ZifyBool.
(* in this file and in every file that imports it, lia sees / and mod through their defining equations *)
Ltac Zify.zify_post_hook ::= Z.div_mod_to_equations.

Lemma blen_nonneg : forall b, 0 <= blen b.
Proof. intros; unfold blen; lia. Qed.

Lemma blen_nil : blen [] = 0.
Proof. reflexivity. Qed.

Lemma blen_cons : forall x b, blen (x :: b) = 1 + blen b.
Proof. intros; unfold blen; cbn [length]; lia. Qed.

Lemma blen_app : forall a b, blen (a ++ b) = blen a + blen b.
Proof. intros; unfold blen; rewrite app_length; lia. Qed.

Lemma blen_zero_nil : forall b, blen b = 0 -> b = [].
Proof. intros [|x b] H; [reflexivity|]. rewrite blen_cons in H. pose proof (blen_nonneg b). lia. Qed.

Lemma blen_bdrop_max : forall n b, blen (bdrop n b) = Z.max 0 (blen b - Z.max 0 n).
Proof. intros; unfold blen, bdrop; rewrite skipn_length; lia. Qed.

Lemma blen_bdrop : forall n b, 0 <= n <= blen b -> blen (bdrop n b) = blen b - n.
Proof. intros n b H. rewrite blen_bdrop_max. lia. Qed.

Lemma blen_bdrop_le : forall n b, blen (bdrop n b) <= blen b.
Proof. intros n b. rewrite blen_bdrop_max. pose proof (blen_nonneg b). lia. Qed.

Lemma blen_btake_min : forall k b, blen (btake k b) = Z.max 0 (Z.min k (blen b)).
Proof. intros; unfold blen, btake; rewrite firstn_length; lia. Qed.

Lemma blen_btake : forall n b, 0 <= n <= blen b -> blen (btake n b) = n.
Proof. intros n b H. rewrite blen_btake_min. lia. Qed.

Lemma blen_btake_le : forall n b, blen (btake n b) <= blen b.
Proof. intros n b. rewrite blen_btake_min. pose proof (blen_nonneg b). lia. Qed.

Lemma bdrop_0 : forall b, bdrop 0 b = b.
Proof. reflexivity. Qed.

Lemma btake_all : forall b, btake (blen b) b = b.
Proof. intros; unfold btake, blen; rewrite Nat2Z.id; apply firstn_all. Qed.

Lemma slice_some : forall b lo hi s, slice b lo hi = Some s ->
  0 <= lo /\ lo <= hi /\ hi <= blen b /\ s = btake (hi - lo) (bdrop lo b) /\ blen s = hi - lo.
Proof.
  unfold slice; intros b lo hi s H.
  destruct ((0 <=? lo) && (lo <=? hi) && (hi <=? blen b)) eqn:E; [|discriminate].
  inversion H; subst; clear H.
  assert (0 <= lo /\ lo <= hi /\ hi <= blen b) as (H1 & H2 & H3) by lia.
  repeat split; try assumption.
  rewrite blen_btake; [reflexivity|]. rewrite blen_bdrop; lia.
Qed.

Lemma slice_in : forall b lo hi, 0 <= lo -> lo <= hi -> hi <= blen b ->
  slice b lo hi = Some (btake (hi - lo) (bdrop lo b)).
Proof.
  intros; unfold slice.
  replace ((0 <=? lo) && (lo <=? hi) && (hi <=? blen b)) with true by lia. reflexivity.
Qed.

Lemma slice_none : forall b lo hi, slice b lo hi = None -> lo < 0 \/ hi < lo \/ blen b < hi.
Proof.
  unfold slice; intros b lo hi H.
  destruct ((0 <=? lo) && (lo <=? hi) && (hi <=? blen b)) eqn:E; [discriminate|]. lia.
Qed.

Lemma range_ok : forall b lo hi site, 0 <= lo -> lo <= hi -> hi <= blen b ->
  range b lo hi site = Ok (btake (hi - lo) (bdrop lo b)).
Proof. intros; unfold range; rewrite slice_in by assumption; reflexivity. Qed.

Lemma range_inv : forall b lo hi site s, range b lo hi site = Ok s ->
  0 <= lo /\ lo <= hi /\ hi <= blen b /\ s = btake (hi - lo) (bdrop lo b) /\ blen s = hi - lo.
Proof.
  unfold range; intros b lo hi site s H. destruct (slice b lo hi) eqn:E; [|discriminate].
  inversion H; subst. eapply slice_some; eassumption.
Qed.

Lemma range_np : forall b lo hi site, 0 <= lo -> lo <= hi -> hi <= blen b -> np (range b lo hi site).
Proof. intros; rewrite range_ok by assumption; apply np_ok. Qed.

Lemma idx_ok : forall b i site, 0 <= i < blen b -> exists x, idx b i site = Ok x /\ In x b.
Proof.
  intros b i site H. unfold idx.
  destruct (nth_error b (Z.to_nat i)) eqn:E.
  - exists z. replace (0 <=? i) with true by lia. split; [reflexivity|]. eapply nth_error_In; eassumption.
  - apply nth_error_None in E. unfold blen in H. lia.
Qed.

Lemma idx_inv : forall b i site x, idx b i site = Ok x -> In x b.
Proof.
  unfold idx; intros b i site x H. destruct (nth_error b (Z.to_nat i)) eqn:E; [|discriminate].
  destruct (0 <=? i); inversion H; subst. eapply nth_error_In; eassumption.
Qed.

Lemma idx_site : forall data i s1 s2 x, idx data i s1 = Ok x -> idx data i s2 = Ok x.
Proof.
  intros data i s1 s2 x H. unfold idx in *. destruct (nth_error data (Z.to_nat i)); [|discriminate].
  destruct (0 <=? i); [exact H|discriminate].
Qed.

Lemma idx_np : forall b i site, 0 <= i < blen b -> np (idx b i site).
Proof. intros b i site H. destruct (idx_ok b i site H) as (x & -> & _). apply np_ok. Qed.

Lemma wf_bdrop : forall n b, wf_bytes b -> wf_bytes (bdrop n b).
Proof. intros n b. apply Forall_skipn. Qed.

Lemma wf_btake : forall n b, wf_bytes b -> wf_bytes (btake n b).
Proof. intros n b. apply Forall_firstn. Qed.

Lemma wf_cons_inv : forall x b, wf_bytes (x :: b) -> 0 <= x < 256 /\ wf_bytes b.
Proof. intros x b H; inversion H; subst; split; assumption. Qed.

Lemma wf_slice : forall b lo hi s, wf_bytes b -> slice b lo hi = Some s -> wf_bytes s.
Proof.
  intros b lo hi s H E. apply slice_some in E. destruct E as (_ & _ & _ & -> & _).
  apply wf_btake, wf_bdrop, H.
Qed.

Lemma wf_app : forall a b, wf_bytes a -> wf_bytes b -> wf_bytes (a ++ b).
Proof. intros; unfold wf_bytes in *; apply Forall_app; split; assumption. Qed.

Lemma wf_app_inv : forall a b, wf_bytes (a ++ b) -> wf_bytes a /\ wf_bytes b.
Proof. intros a b H; unfold wf_bytes in *; apply Forall_app in H; exact H. Qed.

Lemma wf_zeros : forall n, wf_bytes (zeros n).
Proof.
  intros; unfold wf_bytes, zeros. rewrite Forall_forall. intros x Hx.
  apply repeat_spec in Hx. subst. unfold is_byte; lia.
Qed.

Lemma blen_zeros : forall n, 0 <= n -> blen (zeros n) = n.
Proof. intros; unfold blen, zeros; rewrite repeat_length; lia. Qed.

Lemma all_zero_zeros : forall k, all_zero (zeros k) = true.
Proof.
  intros k. unfold zeros, all_zero. induction (Z.to_nat k) as [|n IH]; [reflexivity|]. cbn. exact IH.
Qed.

Lemma all_zero_eq_zeros : forall m, all_zero m = true -> m = zeros (blen m).
Proof.
  induction m as [|x m IH]; intros H; [reflexivity|].
  cbn [all_zero forallb] in H. apply andb_prop in H. destruct H as [Hx Hm].
  unfold zeros. rewrite blen_cons. replace (Z.to_nat (1 + blen m)) with (S (Z.to_nat (blen m))) by (pose proof (blen_nonneg m); lia).
  cbn [repeat]. f_equal; [lia|]. apply IH. exact Hm.
Qed.

Lemma all_zero_app : forall a b, all_zero (a ++ b) = all_zero a && all_zero b.
Proof. intros a b. unfold all_zero. apply forallb_app. Qed.

Lemma nm4_ge : forall x, x <= nm4 x.
Proof. intros; unfold nm4. destruct (x mod 4) eqn:E; lia. Qed.

Lemma nm4_lt : forall x, nm4 x < x + 4.
Proof. intros; unfold nm4. destruct (x mod 4) eqn:E; lia. Qed.

Lemma nm4_mod : forall x, nm4 x mod 4 = 0.
Proof. intros; unfold nm4. destruct (x mod 4) eqn:E; lia. Qed.

Lemma nm4_fix : forall x, x mod 4 = 0 -> nm4 x = x.
Proof. intros x H; unfold nm4; rewrite H; reflexivity. Qed.

Lemma nm4_u16_nonneg : forall x, 0 <= x -> 0 <= nm4_u16 x.
Proof. intros x H. unfold nm4_u16. destruct (x mod 4) eqn:E; lia. Qed.

Lemma bdrop_bdrop : forall a b x, 0 <= a -> 0 <= b -> bdrop b (bdrop a x) = bdrop (a + b) x.
Proof. intros a b x Ha Hb. unfold bdrop. rewrite (Z2Nat.inj_add a b), skipn_add by lia. reflexivity. Qed.

Lemma bdrop_btake : forall a n x, 0 <= a <= n -> bdrop a (btake n x) = btake (n - a) (bdrop a x).
Proof. intros a n x H. unfold bdrop, btake. rewrite skipn_firstn_comm. f_equal. lia. Qed.

Lemma btake_btake : forall a n x, 0 <= a <= n -> btake a (btake n x) = btake a x.
Proof. intros a n x H. unfold btake. rewrite firstn_firstn. f_equal. lia. Qed.

Lemma btake_app_l : forall k a x, 0 <= k <= blen a -> btake k (a ++ x) = btake k a.
Proof.
  intros k a x H. unfold btake, blen in *. rewrite firstn_app.
  replace (Z.to_nat k - length a)%nat with 0%nat by lia. apply app_nil_r.
Qed.

Lemma btake_app : forall a b, btake (blen a) (a ++ b) = a.
Proof. intros a b. rewrite btake_app_l by (pose proof (blen_nonneg a); lia). apply btake_all. Qed.

Lemma bdrop_app : forall a b, bdrop (blen a) (a ++ b) = b.
Proof. intros a b. unfold bdrop, blen. rewrite Nat2Z.id, skipn_app, skipn_all, Nat.sub_diag. reflexivity. Qed.

Lemma bdrop_cons : forall k x l, 1 <= k -> bdrop k (x :: l) = bdrop (k - 1) l.
Proof. intros k x l H. unfold bdrop. replace (Z.to_nat k) with (S (Z.to_nat (k - 1))) by lia. reflexivity. Qed.

Lemma range_end : forall b lo site, 0 <= lo <= blen b -> range b lo (blen b) site = Ok (bdrop lo b).
Proof.
  intros b lo site H. rewrite range_ok by lia. rewrite <- (blen_bdrop lo b) by lia. rewrite btake_all. reflexivity.
Qed.

Lemma range_end_inv : forall b lo site s, range b lo (blen b) site = Ok s -> s = bdrop lo b /\ 0 <= lo <= blen b.
Proof.
  intros b lo site s H. pose proof (range_inv _ _ _ _ _ H) as (? & ? & _).
  rewrite range_end in H by lia. inversion H. split; [reflexivity|lia].
Qed.

(* a slice that ends where the next one starts: what is read at [lo, hi) extends what was taken before it *)
Lemma btake_split : forall a lo hi (b : bytes), 0 <= a <= lo -> lo <= hi ->
  btake (hi - a) (bdrop a b) = btake (lo - a) (bdrop a b) ++ btake (hi - lo) (bdrop lo b).
Proof.
  intros a lo hi b Ha Hl. unfold btake, bdrop.
  replace (Z.to_nat (hi - a)) with (Z.to_nat (lo - a) + Z.to_nat (hi - lo))%nat by lia.
  rewrite firstn_add, <- skipn_add. do 3 f_equal. lia.
Qed.

Lemma range_take : forall a (b : bytes) lo hi site s, range b lo hi site = Ok s -> 0 <= a <= lo ->
  btake (hi - a) (bdrop a b) = btake (lo - a) (bdrop a b) ++ s.
Proof.
  intros a b lo hi site s H Ha. apply range_inv in H. destruct H as (_ & ? & _ & -> & _).
  apply btake_split; assumption.
Qed.

Lemma firstn1_skipn : forall (l : bytes) n,
  firstn 1 (skipn n l) = match nth_error l n with Some x => [x] | None => [] end.
Proof. induction l as [|y l IH]; intros [|n]; try reflexivity. apply IH. Qed.

Lemma idx_chunk : forall b i site x, idx b i site = Ok x -> btake 1 (bdrop i b) = [x].
Proof.
  intros b i site x H. unfold idx in H. unfold btake, bdrop. change (Z.to_nat 1) with 1%nat.
  rewrite firstn1_skipn. destruct (nth_error b (Z.to_nat i)); [|discriminate].
  destruct (0 <=? i); inversion H. reflexivity.
Qed.

(* [hi] is a parameter so that rewriting finds the literal the goal holds (4, not 3 + 1) *)
Lemma idx_take : forall a (b : bytes) i hi site x, idx b i site = Ok x -> hi = i + 1 -> 0 <= a <= i ->
  btake (hi - a) (bdrop a b) = btake (i - a) (bdrop a b) ++ [x].
Proof.
  intros a b i hi site x H -> Ha. rewrite (btake_split a i (i + 1)), <- (idx_chunk _ _ _ _ H) by lia.
  do 2 f_equal. lia.
Qed.

Lemma idx_cons : forall x l i site, 1 <= i -> idx (x :: l) i site = idx l (i - 1) site.
Proof.
  intros x l i site H. unfold idx. replace (Z.to_nat i) with (S (Z.to_nat (i - 1))) by lia. cbn [nth_error].
  replace (0 <=? i) with true by lia. replace (0 <=? i - 1) with true by lia. reflexivity.
Qed.

Lemma range_cons : forall x l lo hi site, 1 <= lo -> range (x :: l) lo hi site = range l (lo - 1) (hi - 1) site.
Proof.
  intros x l lo hi site H. unfold range, slice. rewrite blen_cons, bdrop_cons by assumption.
  replace (hi - 1 - (lo - 1)) with (hi - lo) by lia.
  destruct ((0 <=? lo) && (lo <=? hi) && (hi <=? 1 + blen l)) eqn:E1;
    destruct ((0 <=? lo - 1) && (lo - 1 <=? hi - 1) && (hi - 1 <=? blen l)) eqn:E2; reflexivity || lia.
Qed.

Lemma window_agree : forall k a n (x y : bytes), btake k x = btake k y -> 0 <= a -> 0 <= n -> a + n <= k ->
  btake n (bdrop a x) = btake n (bdrop a y).
Proof.
  intros k a n x y H Ha Hn Hk.
  rewrite <- (btake_btake n (k - a) (bdrop a x)), <- (btake_btake n (k - a) (bdrop a y)) by lia.
  rewrite <- !bdrop_btake by lia. rewrite H. reflexivity.
Qed.

Lemma btake_prefix : forall k (x X : bytes), 0 <= k <= blen x -> btake k (btake k x ++ X) = btake k x.
Proof. intros k x X H. rewrite btake_app_l by (rewrite blen_btake; lia). apply btake_btake. lia. Qed.

Lemma slice_agree : forall k (x y : bytes) lo hi, btake k x = btake k y -> hi <= k -> slice x lo hi = slice y lo hi.
Proof.
  intros k x y lo hi H Hk. unfold slice.
  pose proof (f_equal blen H) as L. rewrite !blen_btake_min in L.
  pose proof (blen_nonneg x). pose proof (blen_nonneg y).
  replace (hi <=? blen y) with (hi <=? blen x) by lia.
  destruct ((0 <=? lo) && (lo <=? hi) && (hi <=? blen x)) eqn:E; [|reflexivity].
  rewrite (window_agree k lo (hi - lo) x y) by (assumption || lia). reflexivity.
Qed.

Lemma range_agree : forall k (x y : bytes) lo hi site, btake k x = btake k y -> hi <= k ->
  range x lo hi site = range y lo hi site.
Proof. intros k x y lo hi site H Hk. unfold range. rewrite (slice_agree k x y) by assumption. reflexivity. Qed.

Lemma idx_agree : forall k (x y : bytes) i site, btake k x = btake k y -> 0 <= i < k ->
  idx x i site = idx y i site.
Proof.
  intros k x y i site H Hi. pose proof (window_agree k i 1 x y H ltac:(lia) ltac:(lia) ltac:(lia)) as E.
  unfold btake, bdrop in E. change (Z.to_nat 1) with 1%nat in E. rewrite !firstn1_skipn in E.
  unfold idx. destruct (nth_error x (Z.to_nat i)), (nth_error y (Z.to_nat i)); inversion E; reflexivity.
Qed.

Lemma bytes_eqb_true : forall a b, bytes_eqb a b = true -> a = b.
Proof.
  induction a as [|x a IH]; destruct b as [|y b]; cbn [bytes_eqb]; intros H; try discriminate; [reflexivity|].
  apply andb_prop in H. destruct H as [Hx Hr]. f_equal; [lia|apply IH; exact Hr].
Qed.
