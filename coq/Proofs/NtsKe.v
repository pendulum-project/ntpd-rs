(* The NTS-KE decisions (C28, C29): [handle_new_ke] gives the three answers to a
   key-exchange request, [token_required] / [kept_open_pool] / [closed_otherwise] classify
   every outcome of handle_connection by token and permit, [client_process_inv] reads off
   what a successful client exchange went through; the section at the end turns the
   symbolic cookies of a response into bytes. *)
From V Require Import Model.NtsKe Proofs.Common Gen.ConstNts.

Lemma zlist_eqb_eq a : forall b, zlist_eqb a b = true <-> a = b.
Proof.
  induction a as [|x a IH]; intros [|y b]; cbn [zlist_eqb]; split; intros H; try reflexivity; try discriminate.
  - apply andb_prop in H. destruct H as [H1 H2]. apply Z.eqb_eq in H1. apply IH in H2. subst. reflexivity.
  - inversion H. subst. rewrite Z.eqb_refl. cbn. apply IH. reflexivity.
Qed.

Lemma token_ok_in cfg auth : token_ok cfg auth = true <-> In auth (c_tokens cfg).
Proof. apply (existsb_eqb_In (fun a t => zlist_eqb t a)). intros x y. rewrite zlist_eqb_eq. split; congruence. Qed.

Lemma zmem_in x l : zmem x l = true <-> In x l.
Proof. apply (existsb_eqb_In Z.eqb Z.eqb_eq). Qed.

Definition first_such {A} (P : A -> bool) (l : list A) (x : A) : Prop :=
  exists pre post, l = pre ++ x :: post /\ P x = true /\ forall y, In y pre -> P y = false.

Lemma find_first {A} (P : A -> bool) l x : find P l = Some x <-> first_such P l x.
Proof.
  induction l as [|y l IH]; cbn [find].
  - split; [discriminate|]. intros [pre [post [E _]]]. destruct pre; discriminate.
  - destruct (P y) eqn:Py.
    + split.
      * intros H. inversion H. subst. exists [], l. repeat split; [exact Py|intros z []].
      * intros [pre [post [E [Px Hpre]]]]. destruct pre as [|z pre].
        -- inversion E. reflexivity.
        -- inversion E. subst. rewrite (Hpre z (or_introl eq_refl)) in Py. discriminate.
    + rewrite IH. split.
      * intros [pre [post [E [Px Hpre]]]]. exists (y :: pre), post. subst. repeat split; [exact Px|].
        intros z [<-|Hz]; [exact Py|apply Hpre; exact Hz].
      * intros [pre [post [E [Px Hpre]]]]. destruct pre as [|z pre].
        -- inversion E. subst. congruence.
        -- inversion E. subst. exists pre, post. repeat split; [exact Px|].
           intros w Hw. apply Hpre. right. exact Hw.
Qed.

Lemma find_none_iff {A} (P : A -> bool) l : find P l = None <-> forall y, In y l -> P y = false.
Proof.
  split; [apply find_none|]. induction l as [|y l IH]; intros H; [reflexivity|].
  cbn [find]. rewrite (H y (or_introl eq_refl)). apply IH. intros z Hz. apply H. right. exact Hz.
Qed.

Definition accepts (cfg : srv_cfg) (p : Z) : bool := zmem p (c_protocols cfg).

Lemma accepts_in cfg p : accepts cfg p = true <-> In p (c_protocols cfg).
Proof. apply zmem_in. Qed.

Lemma known_algorithm_iff a :
  known_algorithm a = true <-> a = AEAD_AES_SIV_CMAC_256 \/ a = AEAD_AES_SIV_CMAC_512.
Proof. unfold known_algorithm. lia. Qed.

(* the three answers to a key-exchange request *)
Lemma handle_new_ke cfg export permit als ps dn :
  (exists p a, first_such (accepts cfg) ps p /\ first_such known_algorithm als a /\
     handle_new cfg export permit (Ok (KeyExchange als ps dn)) =
     (ke_response cfg p a (cookies_for a (fst (export p a)) (snd (export p a))) false, Closed 0, false))
  \/ handle_new cfg export permit (Ok (KeyExchange als ps dn)) =
     ([RRec (NextProtocolR []); RRec EndOfMessage], Closed E_NO_PROTOCOL, false)
  \/ (exists p, handle_new cfg export permit (Ok (KeyExchange als ps dn)) =
     ([RRec (NextProtocolR [p]); RRec (AeadAlgorithmR []); RRec EndOfMessage], Closed E_NO_ALGORITHM, false)).
Proof.
  cbn [handle_new]. fold (accepts cfg).
  destruct (find (accepts cfg) ps) as [p|] eqn:Fp; [|right; left; reflexivity].
  destruct (find known_algorithm als) as [a|] eqn:Fa; [left|right; right; exists p; reflexivity].
  exists p, a. apply find_first in Fp. apply find_first in Fa. destruct (export p a). repeat split; assumption.
Qed.

Definition req_auth (q : request) : option (list Z) :=
  match q with
  | FixedKey a _ _ _ _ _ | Support a _ _ _ => Some a
  | KeyExchange _ _ _ => None
  end.
Definition req_keep_alive (q : request) : bool :=
  match q with
  | FixedKey _ _ _ _ _ ka | Support _ _ _ ka => ka
  | KeyExchange _ _ _ => false
  end.

Definition is_cookie (i : ritem) : bool := match i with RCookie _ _ _ => true | RRec (NewCookieR _) => true | _ => false end.
Definition is_keep_alive (i : ritem) : bool := match i with RRec KeepAliveR => true | _ => false end.

Lemma token_required cfg export permit q auth :
  req_auth q = Some auth -> ~ In auth (c_tokens cfg) ->
  handle_new cfg export permit (Ok q) = (bad_request, Closed E_NOT_PERMITTED, false).
Proof.
  intros A N. assert (T : token_ok cfg auth = false).
  { destruct (token_ok cfg auth) eqn:E; [|reflexivity]. apply token_ok_in in E. contradiction. }
  destruct q; cbn [req_auth] in A; inversion A; subst; cbn [handle_new]; rewrite T; reflexivity.
Qed.

Lemma cookies_no_keep_alive a c s : existsb is_keep_alive (cookies_for a c s) = false.
Proof. unfold cookies_for. induction n_cookies; [reflexivity|]. cbn. exact IHn. Qed.

Lemma ke_response_keep_alive cfg p a c s g :
  existsb is_keep_alive (ke_response cfg p a (cookies_for a c s) g) = g.
Proof.
  unfold ke_response. rewrite !existsb_app, cookies_no_keep_alive.
  destruct (c_server cfg), (c_port cfg), g; reflexivity.
Qed.

Lemma supports_response_keep_alive cfg wp wa g :
  existsb is_keep_alive (supports_response cfg wp wa g) = g.
Proof. unfold supports_response. destruct wp, wa, g; reflexivity. Qed.

Lemma on_parse_error_no_ka e : existsb is_keep_alive (fst (on_parse_error e)) = false.
Proof.
  unfold on_parse_error.
  destruct (e =? E_INVALID); [reflexivity|]. destruct (e =? E_NOT_PERMITTED); [reflexivity|].
  destruct (e =? E_CRITICAL); reflexivity.
Qed.

(* a pool request with a configured token *)
Lemma kept_open_pool cfg export permit q auth :
  req_auth q = Some auth -> In auth (c_tokens cfg) ->
  exists resp,
    handle_new cfg export permit (Ok q) =
      (resp, if req_keep_alive q && permit then KeptOpen else Closed 0, req_keep_alive q)
    /\ existsb is_keep_alive resp = req_keep_alive q && permit.
Proof.
  intros A T. destruct q as [als ps dn | a c2s s2c alg p ka | a wp wa ka]; cbn [req_auth] in A; inversion A; subst;
    apply token_ok_in in T; cbn [handle_new req_keep_alive]; rewrite T; eexists; (split; [reflexivity|]).
  - apply ke_response_keep_alive.
  - apply supports_response_keep_alive.
Qed.

(* anything else: closed, the permit is not asked for, no keep-alive record *)
Lemma closed_otherwise cfg export permit pr :
  (forall q auth, pr = Ok q -> req_auth q = Some auth -> ~ In auth (c_tokens cfg)) ->
  exists resp c, handle_new cfg export permit pr = (resp, Closed c, false)
                 /\ existsb is_keep_alive resp = false.
Proof.
  intros N. destruct pr as [q|e|s].
  - destruct (req_auth q) as [auth|] eqn:A.
    + rewrite (token_required cfg export permit q auth A (N q auth eq_refl A)).
      eexists; eexists; split; reflexivity.
    + destruct q as [als ps dn | |]; try discriminate A.
      destruct (handle_new_ke cfg export permit als ps dn) as [(p & a & _ & _ & ->)|[->|(p & ->)]];
        eexists; eexists; split; try reflexivity. apply ke_response_keep_alive.
  - cbn [handle_new]. pose proof (on_parse_error_no_ka e) as K. destruct (on_parse_error e) as [resp code]. cbn [fst] in K.
    eexists; eexists; split; [reflexivity|exact K].
  - cbn [handle_new]. eexists; eexists; split; reflexivity.
Qed.

Lemma pool_classify cfg pr :
  (exists q auth, pr = Ok q /\ req_auth q = Some auth /\ In auth (c_tokens cfg))
  \/ (forall q auth, pr = Ok q -> req_auth q = Some auth -> ~ In auth (c_tokens cfg)).
Proof.
  destruct pr as [q|e|s]; try (right; intros; discriminate).
  destruct (req_auth q) as [auth|] eqn:A; [|right; intros q' au E; inversion E; subst; congruence].
  destruct (token_ok cfg auth) eqn:T.
  - left. exists q, auth. apply token_ok_in in T. repeat split; assumption.
  - right. intros q' au E A'. inversion E. subst. rewrite A in A'. inversion A'. subst.
    intros H. apply token_ok_in in H. congruence.
Qed.

(* handle_longterm never consults the token list: its answers to pool requests do
   not depend on it (the check was made on the first request) *)
Lemma lt_step_ignores_tokens cfg toks pr :
  lt_step (mkCfg (c_protocols cfg) toks (c_server cfg) (c_port cfg)) pr = lt_step cfg pr.
Proof. destruct pr as [[| |]| |]; reflexivity. Qed.

Lemma ke_response_cookies cfg p a c s g :
  filter is_cookie (ke_response cfg p a (cookies_for a c s) g) = cookies_for a c s.
Proof.
  unfold ke_response. cbn [app filter is_cookie]. rewrite !filter_app.
  replace (filter is_cookie (cookies_for a c s)) with (cookies_for a c s)
    by (unfold cookies_for; induction n_cookies; cbn; congruence).
  destruct (c_server cfg), (c_port cfg), g; cbn; apply app_nil_r.
Qed.

Lemma cookies_for_spec a c s :
  length (cookies_for a c s) = 8%nat /\ forall i, In i (cookies_for a c s) -> i = RCookie a c s.
Proof.
  unfold cookies_for. split; [apply repeat_length|]. intros i H. apply repeat_spec in H. exact H.
Qed.

(* what a successful exchange went through, check by check *)
Lemma client_process_inv protos algs export name resp k :
  client_process protos algs export name resp = Ok k ->
  exists r v, fst (parse_response resp) = Ok r
    /\ In (p_protocol r) protos /\ In (p_algorithm r) algs /\ known_algorithm (p_algorithm r) = true
    /\ p_cookies r <> []
    /\ ((v = 4 /\ p_protocol r = PROTO_NTPV4) \/ (v = 5 /\ p_protocol r = PROTO_DRAFT_NTPV5))
    /\ k = mkKex v (p_protocol r) (p_algorithm r)
             (match p_port r with Some v => v | None => NTP_DEFAULT_PORT_Z end)
             (match p_server r with Some n => n | None => name end)
             (fst (export (p_protocol r) (p_algorithm r))) (snd (export (p_protocol r) (p_algorithm r)))
             (p_cookies r).
Proof.
  unfold client_process. destruct (fst (parse_response resp)) as [r|e|s]; cbn [res_bind]; try discriminate.
  destruct (negb (zmem (p_protocol r) protos) || negb (zmem (p_algorithm r) algs)) eqn:M; [discriminate|].
  apply orb_false_elim in M. destruct M as [M1 M2].
  apply negb_false_iff, zmem_in in M1. apply negb_false_iff, zmem_in in M2.
  destruct (negb (known_algorithm (p_algorithm r))) eqn:K; [discriminate|]. apply negb_false_iff in K.
  destruct (export (p_protocol r) (p_algorithm r)) as [c2s s2c] eqn:X.
  destruct (p_cookies r) as [|ck cks] eqn:C; [discriminate|]. rewrite <- C.
  assert (NE : p_cookies r <> []) by (rewrite C; discriminate).
  intros H. exists r.
  destruct (p_protocol r =? PROTO_NTPV4) eqn:P4;
    [exists 4|destruct (p_protocol r =? PROTO_DRAFT_NTPV5) eqn:P5; [exists 5|discriminate]];
    injection H as <-; rewrite X; repeat split; try assumption; [left|right]; split; lia.
Qed.

Section SameKeys.
(* how the key set turns the i-th symbolic cookie of a response into bytes
   (random nonce, AEAD) and back: any pair with the C26 round trip *)
Variable enc_cookie : nat -> Z -> list Z -> list Z -> list Z.
Variable dec_cookie : list Z -> option (Z * list Z * list Z).
Hypothesis dec_enc : forall i a c s, dec_cookie (enc_cookie i a c s) = Some (a, c, s).

Fixpoint realize (i : nat) (items : list ritem) : list (list Z) :=
  match items with
  | [] => []
  | RRec r :: rest => ser_record r :: realize i rest
  | RCookie a c s :: rest => ser_record (NewCookieR (enc_cookie i a c s)) :: realize (S i) rest
  end.
Definition wire (items : list ritem) : list Z := concat (realize 0 items).

Fixpoint cookie_bytes (i : nat) (n : nat) (a : Z) (c s : list Z) : list (list Z) :=
  match n with O => [] | S n' => enc_cookie i a c s :: cookie_bytes (S i) n' a c s end.

Lemma realize_cookies n : forall i a c s rest,
  realize i (repeat (RCookie a c s) n ++ rest) =
  map (fun b => ser_record (NewCookieR b)) (cookie_bytes i n a c s) ++ realize (i + n) rest.
Proof.
  induction n as [|n IH]; intros i a c s rest; cbn [repeat app realize cookie_bytes map].
  - rewrite Nat.add_0_r. reflexivity.
  - rewrite IH. rewrite Nat.add_succ_r. reflexivity.
Qed.

Lemma cookie_bytes_dec n : forall i a c s ck,
  In ck (cookie_bytes i n a c s) -> dec_cookie ck = Some (a, c, s).
Proof.
  induction n as [|n IH]; intros i a c s ck H; [destruct H|].
  destruct H as [<-|H]; [apply dec_enc|apply (IH _ _ _ _ _ H)].
Qed.

Lemma cookie_bytes_length n i a c s : length (cookie_bytes i n a c s) = n.
Proof. revert i. induction n as [|n IH]; intros i; [reflexivity|]. cbn. rewrite IH. reflexivity. Qed.

Lemma wire_ke_response cfg p a c s :
  wire (ke_response cfg p a (cookies_for a c s) false) =
  ser_response (mkResp p a (cookie_bytes 0 n_cookies a c s) (c_server cfg) (c_port cfg) false).
Proof.
  unfold wire, ke_response, ser_response, cookies_for.
  cbn [app realize concat p_protocol p_algorithm p_cookies p_server p_port p_keep_alive].
  rewrite realize_cookies, concat_app, <- flat_map_concat_map. do 3 f_equal.
  destruct (c_server cfg), (c_port cfg); cbn [opt_item keep_alive_item app realize concat]; rewrite ?app_nil_r; reflexivity.
Qed.

End SameKeys.

(* census of the decision constructs the model mirrors *)
Lemma ntske_census : TOKEN_TESTS = 2 /\ PROTOCOL_FIND = 1 /\ ALGORITHM_FIND = 1 /\ DEFAULT_NUMBER_OF_COOKIES = 8.
Proof. repeat split; reflexivity. Qed.
