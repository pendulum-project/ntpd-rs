(* C31, part 1: machine-level lemmas of the trie model -- nibbles, bitmaps,
   masks, and the interval reading of prefixes. *)
From V Require Import Model.IpFilter Gen.ConstIpFilter Proofs.Common.
From Coq Require Import ZifyBool Sorting.Sorted.

Lemma ssorted_filter : forall (A : Type) (R : A -> A -> Prop) f l,
  StronglySorted R l -> StronglySorted R (filter f l).
Proof.
  induction l; simpl; intros H. constructor. apply StronglySorted_inv in H. destruct H as [Hl Ha].
  destruct (f a). constructor. auto. apply Forall_forall. intros x Hx. apply filter_In in Hx.
  rewrite Forall_forall in Ha. apply Ha. tauto. auto.
Qed.

Lemma ssorted_map : forall (A B : Type) (R : A -> A -> Prop) (S : B -> B -> Prop) (g : A -> B) l,
  (forall x y, In x l -> In y l -> R x y -> S (g x) (g y)) ->
  StronglySorted R l -> StronglySorted S (map g l).
Proof.
  induction l; simpl; intros Hg H. constructor. apply StronglySorted_inv in H. destruct H as [Hl Ha]. constructor.
  - apply IHl; auto.
  - apply Forall_forall. intros y Hy. apply in_map_iff in Hy. destruct Hy as (x & <- & Hx).
    rewrite Forall_forall in Ha. apply Hg; auto.
Qed.

Lemma filter_none : forall (A : Type) (f : A -> bool) l, (forall x, In x l -> f x = false) -> filter f l = [].
Proof.
  induction l; simpl; intros. reflexivity. rewrite H by auto. apply IHl. auto.
Qed.

Lemma filter_all : forall (A : Type) (f : A -> bool) l, (forall x, In x l -> f x = true) -> filter f l = l.
Proof.
  induction l; simpl; intros. reflexivity. rewrite H by auto. f_equal. apply IHl. auto.
Qed.

Lemma combine_map_r : forall (A B : Type) (f : A -> B) l, combine l (map f l) = map (fun x => (x, f x)) l.
Proof. induction l; simpl. reflexivity. f_equal. exact IHl. Qed.

Lemma existsb_ext_in : forall (A : Type) (f g : A -> bool) l,
  (forall x, In x l -> f x = g x) -> existsb f l = existsb g l.
Proof. induction l; simpl; intros. reflexivity. rewrite H, IHl; auto. Qed.

Lemma filter_map_comm : forall (A B : Type) (f : B -> bool) (g : A -> B) l,
  filter f (map g l) = map g (filter (fun x => f (g x)) l).
Proof. induction l; simpl. reflexivity. destruct (f (g a)); simpl; rewrite IHl; reflexivity. Qed.

Lemma existsb_flat_map : forall (A B : Type) (f : B -> bool) (g : A -> list B) l,
  existsb f (flat_map g l) = existsb (fun x => existsb f (g x)) l.
Proof. induction l; simpl. reflexivity. rewrite existsb_app, IHl. reflexivity. Qed.

Lemma flat_map_length_le : forall (A B : Type) (g : A -> list B) l,
  (forall x, length (g x) <= 1)%nat -> (length (flat_map g l) <= length l)%nat.
Proof. induction l; simpl; intros. lia. rewrite app_length. specialize (IHl H). specialize (H a). lia. Qed.

Definition in128 (a : Z) : Prop := 0 <= a < 2 ^ 128.

Definition psize (len : Z) : Z := 2 ^ (128 - len).

Definition wf_entry (e : entry) : Prop :=
  in128 (fst e) /\ 0 <= snd e <= 128 /\ fst e mod psize (snd e) = 0.

(* interval reading of "address a lies in prefix e" (for masked values) *)
Definition econtains (a : Z) (e : entry) : bool :=
  (fst e <=? a) && (a <? fst e + psize (snd e)).

Lemma psize_pos : forall len, 0 <= len <= 128 -> 0 < psize len.
Proof. intros. unfold psize. apply Z.pow_pos_nonneg; lia. Qed.

(* [lia] and [nia] expand 2 ^ 124 into a 38-digit literal.  The proofs about nibble blocks need
   only that it is positive and that 2 ^ 128 is 16 times it: they name it and forget its value. *)
Ltac name_block B :=
  change (2 ^ 128) with (16 * 2 ^ 124) in *;
  assert (0 < 2 ^ 124) by reflexivity;
  set (B := 2 ^ 124) in *; clearbody B.

Lemma div_block_range : forall v, in128 v -> 0 <= v / 2 ^ 124 < 16.
Proof.
  intros v [H0 H1]. split. apply Z.div_pos; lia. apply Z.div_lt_upper_bound; [reflexivity | exact H1].
Qed.

Lemma top_nibble_div : forall v, in128 v -> top_nibble v = v / 2 ^ 124.
Proof.
  intros v H. unfold top_nibble, TOP_SHIFT. rewrite Z.shiftr_div_pow2 by lia.
  change 15 with (Z.ones 4). rewrite Z.land_ones by lia. apply Z.mod_small, div_block_range, H.
Qed.

Lemma top_nibble_range : forall v, in128 v -> 0 <= top_nibble v < 16.
Proof. intros v H. rewrite top_nibble_div by exact H. apply div_block_range, H. Qed.

Lemma nibble_lower : forall v, in128 v -> top_nibble v * 2 ^ 124 <= v.
Proof. intros v H. rewrite top_nibble_div, Z.mul_comm by exact H. apply Z.mul_div_le. reflexivity. Qed.

Lemma shl16_one : forall i, 0 <= i < 16 -> shl 16 1 i = 2 ^ i.
Proof.
  intros i H. unfold shl, wrap. rewrite (Z.mod_small i 16) by lia. rewrite Z.mul_1_l.
  apply Z.mod_small. split. apply Z.pow_nonneg; lia. apply Z.pow_lt_mono_r; lia.
Qed.

(* the shift to the next nibble drops the top one *)
Lemma shl128_4 : forall v, shl 128 v 4 = 16 * (v mod 2 ^ 124).
Proof.
  intros. unfold shl, wrap. change (2 ^ (4 mod 128)) with 16. change (2 ^ 128) with (16 * 2 ^ 124).
  rewrite (Z.mul_comm v). apply Z.mul_mod_distr_l; discriminate.
Qed.

Lemma in128_shl4 : forall a, in128 (shl 128 a 4).
Proof.
  intros. rewrite shl128_4. pose proof (Z.mod_pos_bound a (2 ^ 124) eq_refl). unfold in128. name_block B. lia.
Qed.

Lemma shl128_top : forall i, 0 <= i < 16 -> shl 128 i TOP_SHIFT = i * 2 ^ 124.
Proof.
  intros i H. unfold shl, wrap, TOP_SHIFT. change (124 mod 128) with 124.
  apply Z.mod_small. name_block B. nia.
Qed.

Lemma shl128_psize : forall len, 1 <= len <= 128 -> shl 128 1 (wrap 8 (128 - len)) = psize len.
Proof.
  intros len H. unfold shl, wrap, psize. rewrite (Z.mod_small (128 - len)) by (change (2^8) with 256; lia).
  rewrite (Z.mod_small (128 - len) 128) by lia. rewrite Z.mul_1_l.
  apply Z.mod_small. split. apply Z.pow_nonneg; lia. apply Z.pow_lt_mono_r; lia.
Qed.

(* the child offset and the child index fit into u32 *)
Lemma wrap32_child : forall a m : nat, Z.of_nat a + Z.of_nat m < 2 ^ 32 ->
  wrap 32 (wrap 32 (Z.of_nat a) + Z.of_nat m) = Z.of_nat (a + m).
Proof. intros a m H. unfold wrap. rewrite (Z.mod_small (Z.of_nat a)), Z.mod_small by lia. lia. Qed.

Lemma bit16_testbit : forall x i, 0 <= i < 16 -> bit16 x i = Z.testbit x i.
Proof.
  intros. unfold bit16. rewrite shl16_one, land_pow2 by lia. apply negb_involutive.
Qed.

Lemma not16_spec : forall x k, 0 <= k < 16 -> Z.testbit (not16 x) k = negb (Z.testbit x k).
Proof.
  intros. unfold not16. rewrite Z.lxor_spec. change 65535 with (Z.ones 16).
  rewrite Z.ones_spec_low by lia. apply xorb_true_r.
Qed.

Lemma wrap16_ones : forall n, 0 <= n < 16 -> wrap 16 (shl 16 1 n - 1) = Z.ones n.
Proof.
  intros. rewrite shl16_one by lia. rewrite Z.ones_equiv. unfold wrap.
  apply Z.mod_small. assert (0 < 2 ^ n) by (apply Z.pow_pos_nonneg; lia).
  assert (2 ^ n < 2 ^ 16) by (apply Z.pow_lt_mono_r; lia). lia.
Qed.

(* number of set bits among the first n positions *)
Definition bcount (g : Z -> bool) (n : nat) : Z :=
  fold_right (fun k acc => (if g k then 1 else 0) + acc) 0 (zseq n).

Lemma zseq_S : forall n, zseq (S n) = zseq n ++ [Z.of_nat n].
Proof. intros. unfold zseq. rewrite seq_S, map_app. reflexivity. Qed.

Lemma zseq_length : forall n, length (zseq n) = n.
Proof. intros. unfold zseq. rewrite map_length, seq_length. reflexivity. Qed.

Lemma in_zseq : forall n k, In k (zseq n) <-> 0 <= k < Z.of_nat n.
Proof.
  intros. unfold zseq. rewrite in_map_iff. split.
  - intros (x & <- & Hx). apply in_seq in Hx. lia.
  - intros H. exists (Z.to_nat k). split. lia. apply in_seq. lia.
Qed.

(* position of n among the selected elements of 0..m-1 *)
Lemma nth_filter_zseq : forall (g : Z -> bool) (m : nat) n, 0 <= n < Z.of_nat m -> g n = true ->
  nth_error (filter g (zseq m)) (length (filter g (zseq (Z.to_nat n)))) = Some n.
Proof.
  induction m; intros n Hn Hg. lia.
  rewrite zseq_S, filter_app. destruct (Z.eq_dec n (Z.of_nat m)).
  - subst n. rewrite Nat2Z.id. rewrite nth_error_app2 by lia. rewrite Nat.sub_diag. simpl. rewrite Hg. reflexivity.
  - assert (H : nth_error (filter g (zseq m)) (length (filter g (zseq (Z.to_nat n)))) = Some n) by (apply IHm; auto; lia).
    rewrite nth_error_app1. exact H. apply nth_error_Some. congruence.
Qed.

Lemma bcount_filter : forall g n, bcount g n = Z.of_nat (length (filter g (zseq n))).
Proof.
  intros. unfold bcount. induction (zseq n) as [| k l IH]; cbn [fold_right filter]. reflexivity.
  rewrite IH. destruct (g k); cbn [length]; lia.
Qed.

Lemma bcount_S : forall g n, bcount g (S n) = bcount g n + (if g (Z.of_nat n) then 1 else 0).
Proof.
  intros. rewrite !bcount_filter, zseq_S, filter_app, app_length. cbn [filter].
  destruct (g (Z.of_nat n)); cbn [length]; lia.
Qed.

Lemma bcount_ext : forall g h n, (forall k, 0 <= k < Z.of_nat n -> g k = h k) -> bcount g n = bcount h n.
Proof.
  induction n; intros. reflexivity.
  rewrite !bcount_S, IHn, H by (intros; try apply H; lia). reflexivity.
Qed.

Lemma bcount_range : forall g n, 0 <= bcount g n <= Z.of_nat n.
Proof. induction n. cbv; split; discriminate. rewrite bcount_S. destruct (g (Z.of_nat n)); lia. Qed.

Lemma bcount_cut : forall g (n m : nat), (n <= m)%nat ->
  bcount (fun k => g k && (k <? Z.of_nat n)) m = bcount g n.
Proof.
  intros g n m H. induction m.
  - assert (n = O) by lia. subst. reflexivity.
  - destruct (Nat.eq_dec n (S m)).
    + subst. apply bcount_ext. intros. destruct (Z.ltb_spec k (Z.of_nat (S m))). apply andb_true_r. lia.
    + rewrite bcount_S, IHm by lia. destruct (Z.ltb_spec (Z.of_nat m) (Z.of_nat n)). lia.
      rewrite andb_false_r. lia.
Qed.

Lemma popcount16_bcount : forall x, popcount16 x = bcount (Z.testbit x) 16.
Proof. reflexivity. Qed.

(* the child rank computed by lookup *)
Lemma rank_spec : forall known n, 0 <= n < 16 ->
  popcount16 (Z.land (not16 known) (wrap 16 (shl 16 1 n - 1))) =
  bcount (fun k => negb (Z.testbit known k)) (Z.to_nat n).
Proof.
  intros. rewrite wrap16_ones, popcount16_bcount by lia.
  rewrite <- (bcount_cut (fun k => negb (Z.testbit known k)) (Z.to_nat n) 16) by lia.
  apply bcount_ext. intros k Hk. rewrite Z.land_spec, not16_spec, Z.testbit_ones_nonneg by lia.
  rewrite Z2Nat.id by lia. reflexivity.
Qed.

Lemma count_zeros16_spec : forall x,
  count_zeros16 x = bcount (fun k => negb (Z.testbit x k)) 16.
Proof.
  intros. unfold count_zeros16. rewrite popcount16_bcount.
  assert (G : forall n, bcount (Z.testbit x) n + bcount (fun k => negb (Z.testbit x k)) n = Z.of_nat n).
  { induction n. reflexivity. rewrite !bcount_S. destruct (Z.testbit x (Z.of_nat n)); simpl; lia. }
  specialize (G 16%nat). lia.
Qed.

Lemma testbit_high128 : forall v n, in128 v -> 128 <= n -> Z.testbit v n = false.
Proof.
  intros v n [H0 H1] Hn. destruct (Z.eq_dec v 0). subst; apply Z.bits_0.
  apply Z.bits_above_log2. lia. assert (Z.log2 v < 128) by (apply Z.log2_lt_pow2; lia). lia.
Qed.

Lemma apply_mask_spec : forall v len, in128 v -> 0 <= len <= 128 ->
  apply_mask v len = v / psize len * psize len.
Proof.
  intros v len Hv Hl. unfold apply_mask, psize, wrap.
  rewrite (Z.mod_small (128 - len)) by (change (2^8) with 256; lia).
  destruct (Z.ltb_spec (128 - len) 128).
  - set (sh := 128 - len) in *. apply Z.bits_inj'. intros n Hn.
    rewrite Z.land_spec, Z.testbit_mod_pow2, !Z.mul_pow2_bits by lia.
    change u128_max with (Z.ones 128).
    destruct (Z.ltb_spec n sh).
    + rewrite (Z.testbit_neg_r _ (n - sh)) by lia. rewrite (Z.testbit_neg_r _ (n - sh)) by lia.
      rewrite andb_false_r. apply andb_false_r.
    + rewrite Z.div_pow2_bits by lia. replace (n - sh + sh) with n by lia.
      destruct (Z.ltb_spec n 128).
      * rewrite Z.ones_spec_low by lia. simpl. apply andb_true_r.
      * rewrite testbit_high128 by (auto; lia). reflexivity.
  - assert (len = 0) by lia. subst. replace (128 - 0) with 128 by lia.
    rewrite Z.div_small by exact Hv. reflexivity.
Qed.

Lemma apply_mask_wf : forall v len, in128 v -> 0 <= len <= 128 -> wf_entry (apply_mask v len, len).
Proof.
  intros v len Hv Hl. rewrite apply_mask_spec by auto. pose proof (psize_pos len Hl).
  unfold wf_entry; simpl. repeat split; try lia.
  - apply Z.mul_nonneg_nonneg. apply Z.div_pos; unfold in128 in Hv; lia. lia.
  - assert (v / psize len * psize len <= v). { rewrite Z.mul_comm. apply Z.mul_div_le. lia. }
    unfold in128 in Hv. lia.
  - apply Z_mod_mult.
Qed.

(* comparing with a multiple of B is comparing the quotient *)
Lemma block_le : forall B t a, 0 < B -> (t * B <=? a) = (t <=? a / B).
Proof.
  intros B t a HB. pose proof (Z.div_mod a B ltac:(lia)). pose proof (Z.mod_pos_bound a B HB).
  destruct (Z.leb_spec (t * B) a), (Z.leb_spec t (a / B)); auto; nia.
Qed.

Lemma block_lt : forall B t a, 0 < B -> (a <? t * B) = (a / B <? t).
Proof.
  intros B t a HB. pose proof (Z.div_mod a B ltac:(lia)). pose proof (Z.mod_pos_bound a B HB).
  destruct (Z.ltb_spec a (t * B)), (Z.ltb_spec (a / B) t); auto; nia.
Qed.

(* naive mask comparison = interval membership of the masked value *)
Lemma contains_interval : forall v len a, in128 v -> 0 <= len <= 128 ->
  (v / psize len =? a / psize len) = econtains a (apply_mask v len, len).
Proof.
  intros v len a Hv Hl. rewrite apply_mask_spec by auto. unfold econtains; cbn [fst snd].
  pose proof (psize_pos len Hl) as HP. set (P := psize len) in *. set (q := v / P).
  replace (q * P + P) with ((q + 1) * P) by ring. rewrite block_le, block_lt by exact HP. lia.
Qed.
