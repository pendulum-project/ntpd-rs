(* C06 -- proofs about Model/Kalman.v instantiated at the real numbers: the covariance
   stays symmetric positive semidefinite under every filter operation, hence every divisor
   met is non-zero and every square-root argument is non-negative in exact arithmetic. *)
From V Require Import Model.Kalman.
From Coq Require Import Reals Lra.
Close Scope float_scope.  (* numerals below are reals *)
Open Scope R_scope.

(* The invariant of the filter: the matrix [a b; c d] is symmetric positive semidefinite
   ([InvR] on the four entries, [Inv] on a [mat2]).  Not an inverse: that is [inverse2] in the
   model. *)
Definition InvR (a b c d : R) : Prop := b = c /\ 0 <= a /\ 0 <= d /\ 0 <= a * d - b * c.
Definition Inv (P : mat2 R) : Prop := InvR (a00 P) (a01 P) (a10 P) (a11 P).

Lemma InvR_ext a b c d a' b' c' d' :
  a = a' -> b = b' -> c = c' -> d = d' -> InvR a' b' c' d' -> InvR a b c d.
Proof. intros; subst; auto. Qed.

Lemma sq_le0 x : x * x <= 0 -> x = 0.
Proof. intros H. destruct (Req_dec x 0) as [|N]; auto. exfalso. assert (0 < x * x) by (apply Rsqr_pos_lt; auto). lra. Qed.

Lemma quad_nonneg i x : 0 <= i -> 0 <= x * (i * x).
Proof. intros. replace (x * (i * x)) with (i * (x * x)) by ring. apply Rmult_le_pos; auto. apply Rle_0_sqr. Qed.

(* the quadratic form of a positive semidefinite matrix is non-negative *)
Lemma psd_form a b d x y :
  0 <= a -> 0 <= d -> 0 <= a * d - b * b -> 0 <= a * (x * x) + 2 * b * (x * y) + d * (y * y).
Proof.
  intros Ha Hd Hdet.
  assert (0 <= x * x) by apply Rle_0_sqr.
  destruct (Req_dec d 0) as [E|N].
  - subst d. assert (b = 0) by (apply sq_le0; lra). subst b.
    assert (0 <= a * (x * x)) by (apply Rmult_le_pos; auto). lra.
  - (* d times the form is det * x^2 + (b x + d y)^2 *)
    assert (0 <= (b * x + d * y) * (b * x + d * y)) by apply Rle_0_sqr.
    assert (0 <= (a * d - b * b) * (x * x)) by (apply Rmult_le_pos; auto).
    apply Rmult_le_reg_l with d; lra.
Qed.

(* det (P1 + P2) - det P1 - det P2 for two positive semidefinite matrices *)
Lemma mixed_nonneg a1 b1 d1 a2 b2 d2 :
  0 <= a1 -> 0 <= d1 -> 0 <= a1 * d1 - b1 * b1 -> 0 <= a2 -> 0 <= d2 -> 0 <= a2 * d2 - b2 * b2 ->
  0 <= a1 * d2 + a2 * d1 - 2 * b1 * b2.
Proof.
  intros Ha1 Hd1 H1 Ha2 Hd2 H2.
  destruct (Req_dec d1 0) as [E|N].
  - subst d1. assert (b1 = 0) by (apply sq_le0; lra). subst b1.
    assert (0 <= a1 * d2) by (apply Rmult_le_pos; auto). lra.
  - (* d1 times it is the form of P2 at (d1, - b1) plus det P1 * d2 *)
    assert (Hq := psd_form a2 b2 d2 d1 (- b1) Ha2 Hd2 H2).
    assert (0 <= (a1 * d1 - b1 * b1) * d2) by (apply Rmult_le_pos; auto).
    apply Rmult_le_reg_l with d1; lra.
Qed.

(* the symmetric positive semidefinite matrices contain the non-negative diagonal ones and form a
   cone: InvR_diag, InvR_scale, InvR_add *)
Lemma InvR_diag a d : 0 <= a -> 0 <= d -> InvR a 0 0 d.
Proof. intros. assert (0 <= a * d) by (apply Rmult_le_pos; auto). repeat split; lra. Qed.

Lemma InvR_scale k a b c d : 0 <= k -> InvR a b c d -> InvR (k * a) (k * b) (k * c) (k * d).
Proof.
  intros Hk (E & Ha & Hd & Hdet). subst c.
  assert (0 <= k * k * (a * d - b * b)) by (apply Rmult_le_pos; auto; apply Rle_0_sqr).
  repeat split; try apply Rmult_le_pos; auto. lra.
Qed.

Lemma InvR_add a1 b1 c1 d1 a2 b2 c2 d2 :
  InvR a1 b1 c1 d1 -> InvR a2 b2 c2 d2 -> InvR (a1 + a2) (b1 + b2) (c1 + c2) (d1 + d2).
Proof.
  intros (E1 & Ha1 & Hd1 & H1) (E2 & Ha2 & Hd2 & H2). subst c1 c2.
  assert (M := mixed_nonneg a1 b1 d1 a2 b2 d2 Ha1 Hd1 H1 Ha2 Hd2 H2).
  repeat split; lra.
Qed.

Lemma progress_psd a b c d w t :
  InvR a b c d -> 0 <= w -> 0 <= t ->
  InvR (a + t * c + (b + t * d) * t + w * t * t * t / 3) (b + t * d + w * t * t / 2)
       (c + d * t + w * t * t / 2) (d + w * t).
Proof.
  intros HI Hw Ht.
  (* F P F^T with F = [1 t; 0 1] has the determinant of P *)
  assert (HF : InvR (a + t * c + (b + t * d) * t) (b + t * d) (c + d * t) d).
  { destruct HI as (E & Ha & Hd & Hdet). subst c.
    assert (Hq := psd_form a b d 1 t Ha Hd Hdet). repeat split; lra. }
  (* the process noise is w t [t^2/3 t/2; t/2 1], and the matrix has determinant t^2 / 12 *)
  assert (0 <= t * t) by apply Rle_0_sqr.
  assert (HQ : InvR (t * t / 3) (t / 2) (t / 2) 1) by (repeat split; lra).
  apply (InvR_scale (w * t)) in HQ; [|apply Rmult_le_pos; auto].
  eapply InvR_ext. 5: exact (InvR_add _ _ _ _ _ _ _ _ HF HQ). all: lra.
Qed.

Lemma progress_pos a b c d w t :
  InvR a b c d -> 0 < w -> 0 < t -> 0 < a + t * c + (b + t * d) * t + w * t * t * t / 3.
Proof.
  intros (E & Ha & Hd & Hdet) Hw Ht. subst c.
  assert (Hq := psd_form a b d 1 t Ha Hd Hdet).
  assert (0 < w * t * t * t) by (repeat apply Rmult_lt_0_compat; auto).
  lra.
Qed.

(* measurement update with H = [1 0], noise r, S = a + r *)
Lemma absorb_psd a b c d r :
  InvR a b c d -> 0 <= r -> 0 < a + r ->
  let S := a + r in
  let k0 := a / S in let k1 := c / S in
  let n00 := (1 - k0) * a in let n01 := (1 - k0) * b in
  let n10 := (0 - k1) * a + c in let n11 := (0 - k1) * b + d in
  InvR ((n00 + n00) / 2) ((n01 + n10) / 2) ((n10 + n01) / 2) ((n11 + n11) / 2).
Proof.
  intros HI Hr HS. assert (E : b = c) by apply HI. subst c. cbv zeta.
  (* P - K H P = (r P + det P [0 0; 0 1]) / S *)
  assert (HD : InvR 0 0 0 (a * d - b * b)) by (apply InvR_diag; [lra | apply HI]).
  eapply InvR_ext.
  5: { apply (InvR_scale (/ (a + r))). left; apply Rinv_0_lt_compat, HS.
       exact (InvR_add _ _ _ _ _ _ _ _ (InvR_scale r _ _ _ _ Hr HI) HD). }
  all: field; lra.
Qed.

(* merge: P1 (P1+P2)^-1 P2, with [i] standing for 1 / det (P1+P2).  Since P adj P = det P,
   P1 adj (P1+P2) P2 = det P2 * P1 + det P1 * P2. *)
Lemma merge_psd a1 b1 c1 d1 a2 b2 c2 d2 i :
  InvR a1 b1 c1 d1 -> InvR a2 b2 c2 d2 -> 0 <= i ->
  let m00 := i * (d1 + d2) in let m01 := - i * (b1 + b2) in
  let m10 := - i * (c1 + c2) in let m11 := i * (a1 + a2) in
  let x00 := a1 * m00 + b1 * m10 in let x01 := a1 * m01 + b1 * m11 in
  let x10 := c1 * m00 + d1 * m10 in let x11 := c1 * m01 + d1 * m11 in
  InvR (x00 * a2 + x01 * c2) (x00 * b2 + x01 * d2) (x10 * a2 + x11 * c2) (x10 * b2 + x11 * d2).
Proof.
  intros H1 H2 Hi. assert (E1 : b1 = c1) by apply H1. assert (E2 : b2 = c2) by apply H2. subst c1 c2. cbv zeta.
  eapply InvR_ext.
  5: { apply (InvR_scale i); [exact Hi|].
       apply InvR_add; [apply (InvR_scale (a2 * d2 - b2 * b2)), H1; apply H2
                       | apply (InvR_scale (a1 * d1 - b1 * b1)), H2; apply H1]. }
  all: ring.
Qed.

(* the determinant of a sum of PSD matrices: positive as soon as one is positive definite *)
Lemma det_sum_pos a1 b1 d1 a2 b2 d2 :
  0 <= a1 -> 0 <= d1 -> 0 < a1 * d1 - b1 * b1 -> 0 <= a2 -> 0 <= d2 -> 0 <= a2 * d2 - b2 * b2 ->
  0 < (a1 + a2) * (d1 + d2) - (b1 + b2) * (b1 + b2).
Proof.
  intros Ha1 Hd1 H1 Ha2 Hd2 H2.
  assert (M := mixed_nonneg a1 b1 d1 a2 b2 d2 Ha1 Hd1 (Rlt_le _ _ H1) Ha2 Hd2 H2). lra.
Qed.

(* NtpDuration::to_seconds keeps the sign *)
Lemma secs_nonneg d : (0 <= d)%Z -> 0 <= IZR d / 4294967295.
Proof. intros H. apply Rmult_le_pos; [apply IZR_le; auto | lra]. Qed.

Lemma secs_pos d : (0 < d)%Z -> 0 < IZR d / 4294967295.
Proof. intros H. apply Rdiv_lt_0_compat; [apply IZR_lt; auto | lra]. Qed.

(* the real number a binary64 literal stands for; 0 for an infinity or NaN, which is not among
   the model's literals *)
Definition litR (f : float) : R :=
  match Prim2SF f with
  | S754_finite s m e =>
      (if s then -1 else 1) * IZR (Zpos m) * (if (0 <=? e)%Z then IZR (2 ^ e) else / IZR (2 ^ (- e)))
  | _ => 0
  end.

(* the comparisons of the interface: < and <= on reals as booleans *)
Definition Rltb (a b : R) : bool := if Rlt_dec a b then true else false.
Definition Rleb (a b : R) : bool := if Rle_dec a b then true else false.

Section Real.
Variable fs : R -> Z.          (* NtpDuration::from_seconds on reals: any function *)
Variable rem : R -> R -> R.    (* % on reals: any function *)

(* the numeric interface of the model at the reals: exact operations, no NaN *)
Definition ROps : NumOps R :=
  mkNum R litR Rplus Rminus Rmult Rdiv sqrt Ropp Rltb Rleb Rmax (fun _ => false) rem IZR fs.

(* a recorded side condition, read at the reals *)
Definition holds (o : oblig R) : Prop :=
  match o with NonZero x => x <> 0 | NonNeg x => 0 <= x end.

(* [sp m Q]: every side condition recorded by [m] holds, and its result satisfies [Q] *)
Definition sp {A} (m : M R A) (Q : A -> Prop) : Prop := Forall holds (snd m) /\ Q (fst m).

Lemma sp_ret A (a : A) (Q : A -> Prop) : Q a -> sp (ret a) Q.
Proof. intros; split; simpl; auto. Qed.
Lemma sp_if A (c : bool) (m1 m2 : M R A) (Q : A -> Prop) : sp m1 Q -> sp m2 Q -> sp (if c then m1 else m2) Q.
Proof. destruct c; auto. Qed.
Lemma sp_bind A B (m : M R A) (f : A -> M R B) (Q : A -> Prop) (Q' : B -> Prop) :
  sp m Q -> (forall a, Q a -> sp (f a) Q') -> sp (bind m f) Q'.
Proof.
  intros [H1 H2] H. destruct (H _ H2) as [H3 H4]. split; simpl; auto.
  apply Forall_app; auto.
Qed.
Lemma sp_then A B (m : M R A) (f : A -> M R B) (Q' : B -> Prop) :
  sp m (fun _ => True) -> (forall a, sp (f a) Q') -> sp (bind m f) Q'.
Proof. intros H H'. eapply sp_bind; eauto. Qed.
Lemma sp_weaken A (m : M R A) (Q Q' : A -> Prop) : sp m Q -> (forall a, Q a -> Q' a) -> sp m Q'.
Proof. intros [H1 H2] H; split; auto. Qed.
Lemma sp_div a b (Q : R -> Prop) : b <> 0 -> Q (a / b) -> sp (divM ROps a b) Q.
Proof. intros; split; simpl; auto. Qed.
Lemma sp_sqrt a (Q : R -> Prop) : 0 <= a -> Q (sqrt a) -> sp (sqrtM ROps a) Q.
Proof. intros; split; simpl; auto. Qed.
(* a division step: the rest runs on the quotient, written in whatever form [q] suits the proof *)
Lemma sp_div_bind A a b q (f : R -> M R A) (Q : A -> Prop) :
  b <> 0 -> a / b = q -> sp (f q) Q -> sp (bind (divM ROps a b) f) Q.
Proof. intros Hb <- H. eapply sp_bind; [apply sp_div with (Q := eq (a / b)); auto | intros ? <-; exact H]. Qed.

(* a literal: sign, mantissa and exponent come from the VM, the power of two from cbv *)
Ltac lit_tac :=
  simpl; unfold litR;
  match goal with |- context [Prim2SF ?f] =>
    let x := eval vm_compute in (Prim2SF f) in replace (Prim2SF f) with x by (vm_compute; reflexivity) end;
  cbv [Z.leb Z.compare Z.opp Z.pow Z.pow_pos Pos.iter Z.mul Pos.mul];
  lra.
Lemma c0_R : Kalman.c0 ROps = 0. Proof. unfold Kalman.c0. lit_tac. Qed.
Lemma cn0_R : Kalman.cn0 ROps = 0. Proof. unfold Kalman.cn0. lit_tac. Qed.
Lemma c1_R : Kalman.c1 ROps = 1. Proof. unfold Kalman.c1. lit_tac. Qed.
Lemma c2_R : Kalman.c2 ROps = 2. Proof. unfold Kalman.c2. lit_tac. Qed.
Lemma c3_R : Kalman.c3 ROps = 3. Proof. unfold Kalman.c3. lit_tac. Qed.
Lemma c4_R : Kalman.c4 ROps = 4. Proof. unfold Kalman.c4. lit_tac. Qed.
Lemma c7_R : Kalman.c7 ROps = 7. Proof. unfold Kalman.c7. lit_tac. Qed.
Lemma c8_R : Kalman.c8 ROps = 8. Proof. unfold Kalman.c8. lit_tac. Qed.
Lemma c100_R : Kalman.c100 ROps = 100. Proof. unfold Kalman.c100. lit_tac. Qed.
Lemma cu32_R : Kalman.cu32 ROps = 4294967295. Proof. unfold Kalman.cu32. lit_tac. Qed.
Lemma chiP_R : 0 < lit ROps CHI_P. Proof. lit_tac. Qed.
End Real.

(* [real_lits] rewrites the model's literal constants ([c0 ROps], ...) to real numerals.
   [cu32] is left out: [rewrite] would evaluate its bit pattern against every other constant in
   sight; [to_seconds_sp] is the one place that meets it. *)
Ltac real_lits := rewrite ?c0_R, ?cn0_R, ?c1_R, ?c2_R, ?c3_R, ?c4_R, ?c7_R, ?c8_R, ?c100_R.
(* [real_ops] turns the model's operations at [ROps] into those of R, in goal and hypotheses: the
   2x2 matrix operations and entries are reduced by value, so that the inner product of a nested
   [mm22] is computed once; the numeric operations by cbn, which leaves [c1 ROps] and the like
   folded for [real_lits]. *)
Ltac real_ops := cbv [mm22 mv22 madd2 msub2 transpose2 unit2 sum2 sum1 sqr det2 a00 a01 a10 a11] in *;
                 cbn [s0 s1 unc ktime fst snd fadd fsub fmul fdiv fneg fsqrt of_int ROps] in *.
(* [div_step tac]: one monadic division whose divisor is non-zero by [tac]; the rest of the
   computation goes on with the quotient as it stands *)
Ltac div_step tac := eapply sp_div_bind; [real_lits; tac | reflexivity | ].

Section Operations.
Variable fs : R -> Z.
Variable rem : R -> R -> R.
Notation ROps := (ROps fs rem).

Lemma to_seconds_sp d (Q : R -> Prop) : Q (IZR d / 4294967295) -> sp (to_seconds ROps d) Q.
Proof. intros. unfold to_seconds. apply sp_div; rewrite cu32_R; [lra | auto]. Qed.

Lemma elapsed_sp a b :
  is_before a b = false ->
  sp (to_seconds ROps (ts_sub a b)) (fun t => 0 <= t /\ ((0 < ts_sub a b)%Z -> 0 < t)).
Proof. intros H. apply Z.ltb_ge in H. apply to_seconds_sp. split; [apply secs_nonneg, H | apply secs_pos]. Qed.

(* both periodicity loops add or subtract 0.0 to the frequency *)
Lemma cp_snd fuel p h : forall x y,
  snd (cp_down ROps fuel x y p h) = y /\ snd (cp_up ROps fuel x y p h) = y.
Proof.
  induction fuel; intros; cbn [cp_down cp_up]; [auto|].
  destruct (fltb ROps h x), (fltb ROps x h); cbn [snd];
    rewrite ?(proj1 (IHfuel _ _)), ?(proj2 (IHfuel _ _)); real_ops; real_lits; split; lra.
Qed.

Lemma cp_sp fuel x y P t per :
  sp (correct_periodicity ROps fuel (mkK x y P t) per)
     (fun k' => unc k' = P /\ ktime k' = t /\ s1 k' = y).
Proof.
  unfold correct_periodicity. destruct per as [p|]; [|apply sp_ret; auto].
  div_step lra. div_step lra. cbn [s0 s1 unc ktime].
  destruct (cp_down _ _ _ _ _ _) as [x1 y1] eqn:E1. destruct (cp_up _ _ _ _ _ _) as [x2 y2] eqn:E2.
  apply (f_equal snd) in E1, E2. rewrite (proj1 (cp_snd _ _ _ _ _)) in E1. rewrite (proj2 (cp_snd _ _ _ _ _)) in E2.
  apply sp_ret. simpl in *. repeat split. congruence.
Qed.

Lemma progress_sp fuel k time w per :
  Inv (unc k) -> 0 <= w ->
  sp (progress_time ROps fuel k time w per)
     (fun k' => Inv (unc k') /\
                (0 < w -> (0 < ts_sub time (ktime k))%Z -> 0 < a00 (unc k'))).
Proof.
  intros HI Hw. unfold progress_time.
  destruct k as [x0 x1 [a b c d] tm]. unfold Inv in HI. real_ops. real_lits.
  destruct (is_before time tm) eqn:Hb.
  - apply sp_ret. split; auto. intros _ Hp. unfold is_before in Hb. apply Z.ltb_lt in Hb. lia.
  - eapply sp_bind. apply elapsed_sp, Hb. intros dt (Hdt & Hpos).
    div_step lra. div_step lra. div_step lra.
    eapply sp_weaken. apply cp_sp. intros k' (E & _). rewrite E. unfold Inv. cbn [a00 a01 a10 a11].
    split.
    + eapply InvR_ext. 5: { apply (progress_psd a b c d w dt); auto. } all: lra.
    + intros Hw' Hp. assert (H := progress_pos a b c d w dt HI Hw' (Hpos Hp)). lra.
Qed.

Lemma chi1_sp e chi : 0 <= chi -> sp (chi_1 ROps e chi) (fun _ => True).
Proof.
  intros H. unfold chi_1. div_step lra.
  eapply sp_bind with (Q := fun x => 0 <= x).
  { apply sp_sqrt. real_ops. real_lits. lra. apply sqrt_pos. }
  intros x Hx. apply sp_then; [|intros; apply sp_ret; auto].
  apply sp_div; auto. real_ops. real_lits. assert (P := chiP_R fs rem).
  assert (0 <= lit ROps CHI_P * x) by (apply Rmult_le_pos; [lra | auto]). lra.
Qed.

Lemma period_correction_sp fuel v pred per : sp (period_correction ROps fuel v pred per) (fun _ => True).
Proof.
  unfold period_correction. destruct per.
  - div_step lra. div_step lra. apply sp_ret; auto.
  - apply sp_ret; auto.
Qed.

Lemma symmetrize_sp a b c d :
  sp (symmetrize ROps (mkMat a b c d))
     (fun S => S = mkMat ((a + a) / 2) ((b + c) / 2) ((c + b) / 2) ((d + d) / 2)).
Proof. unfold symmetrize. real_ops. div_step lra. div_step lra. div_step lra. div_step lra. apply sp_ret. real_lits. reflexivity. Qed.

Lemma absorb_sp fuel k value nz per corr e :
  Inv (unc k) -> 0 <= nz -> 0 < a00 (unc k) + nz ->
  sp (absorb ROps fuel k (Kalman.c1 ROps) (Kalman.c0 ROps) value nz per corr e)
     (fun r => Inv (unc (fst (fst r))) /\ ktime (fst (fst r)) = ktime k).
Proof.
  intros HI Hnz HS. unfold absorb.
  destruct k as [x0 x1 [a b c d] tm]. unfold Inv in HI. real_ops. real_lits.
  assert (Hi : 0 < / (a + nz)) by (apply Rinv_0_lt_compat; auto).
  apply sp_then. { destruct corr. apply period_correction_sp. apply sp_ret; auto. }
  intros cv.
  (* both 1/S are carried as [/ (a + nz)], so that the innovation variance is expanded only here *)
  do 2 (eapply sp_div_bind with (q := / (a + nz)); [lra | unfold Rdiv; rewrite Rmult_1_l; f_equal; lra | ]).
  apply sp_then. { apply chi1_sp. rewrite !Rplus_0_l. apply quad_nonneg. lra. }
  intros p. div_step lra.
  eapply sp_bind. apply symmetrize_sp. intros S ->.
  eapply sp_bind. apply cp_sp. intros k' (E & Et & _).
  apply sp_ret. cbn [fst snd]. rewrite E, Et. unfold Inv. cbn [a00 a01 a10 a11]. split; auto.
  eapply InvR_ext. 5: { apply (absorb_psd a b c d nz); auto. } all: lra.
Qed.

Lemma offset_steering_sp fuel k steer per :
  sp (k_offset_steering ROps fuel k steer per) (fun k' => unc k' = unc k).
Proof. unfold k_offset_steering. eapply sp_weaken. apply cp_sp. simpl. intros k' (E & _). auto. Qed.

Lemma frequency_steering_sp fuel k time steer w per :
  Inv (unc k) -> 0 <= w ->
  sp (k_frequency_steering ROps fuel k time steer w per) (fun k' => Inv (unc k')).
Proof.
  intros. unfold k_frequency_steering. eapply sp_bind. apply progress_sp; auto.
  intros k' (HI & _). apply sp_ret. auto.
Qed.

Lemma dispersion_inv (k : kstate R) disp :
  Inv (unc k) -> Inv (unc (add_server_dispersion ROps k disp)) /\
                 a00 (unc k) <= a00 (unc (add_server_dispersion ROps k disp)).
Proof.
  destruct k as [x0 x1 [a b c d] t]. unfold Inv, add_server_dispersion, madd2, sqr.
  cbn [unc a00 a01 a10 a11 fadd fmul ROps]. rewrite c0_R.
  intros HI. assert (0 <= disp * disp) by apply Rle_0_sqr.
  split; [|lra]. apply InvR_add; auto. apply InvR_diag; lra.
Qed.

(* at the reals the sums that start from -0.0 are plain sums *)
Lemma mm22_R a b c d a' b' c' d' :
  mm22 ROps (mkMat a b c d) (mkMat a' b' c' d') =
  mkMat (a * a' + b * c') (a * b' + b * d') (c * a' + d * c') (c * b' + d * d').
Proof. unfold mm22, sum2. cbn [a00 a01 a10 a11 fadd fmul ROps]. rewrite cn0_R. f_equal; lra. Qed.

Lemma inverse2_sp (P : mat2 R) :
  a00 P * a11 P - a01 P * a10 P <> 0 ->
  sp (inverse2 ROps P)
     (fun I => let i := 1 / (a00 P * a11 P - a01 P * a10 P) in
               I = mkMat (i * a11 P) (- i * a01 P) (- i * a10 P) (i * a00 P)).
Proof. intros H. unfold inverse2. div_step auto. apply sp_ret. real_ops. real_lits. reflexivity. Qed.

(* merge is P1 (P1+P2)^-1 P2, defined when det (P1+P2) > 0 *)
Lemma merge_sp k1 k2 :
  Inv (unc k1) -> Inv (unc k2) -> 0 < det2 ROps (madd2 ROps (unc k1) (unc k2)) ->
  sp (merge ROps k1 k2) (fun k' => Inv (unc k') /\ ktime k' = ktime k1).
Proof.
  intros H1 H2 HD. unfold merge.
  destruct k1 as [x0 x1 [a1 b1 c1 d1] t1]. destruct k2 as [y0 y1 [a2 b2 c2 d2] t2].
  unfold Inv in *. cbn [unc ktime] in *.
  eapply sp_bind. { apply inverse2_sp. real_ops. lra. }
  intros I ->. apply sp_ret. cbn [unc ktime]. rewrite (mm22_R a1 b1 c1 d1), mm22_R. real_ops. split; auto.
  apply merge_psd; auto. left. apply Rdiv_lt_0_compat; lra.
Qed.

(* TimeSnapshot::root_dispersion: base + t lin + t^2 quad + t^3 cubic with (base, lin, quad) = (P00, P01, P11) *)
Lemma root_dispersion_arg a b d w t :
  0 <= a -> 0 <= d -> 0 <= a * d - b * b -> 0 <= w -> 0 <= t ->
  0 <= a + t * b + t * t * d + t * (t * t) * w.
Proof.
  intros Ha Hd Hdet Hw Ht.
  assert (Hq := psd_form a b d 1 t Ha Hd Hdet).
  assert (0 <= t * t) by apply Rle_0_sqr.
  assert (0 <= t * t * d) by (apply Rmult_le_pos; auto).
  assert (0 <= t * (t * t) * w) by (repeat apply Rmult_le_pos; auto).
  lra.
Qed.

Lemma root_dispersion_sp base lin quad cubic t0 now :
  0 <= base -> 0 <= quad -> 0 <= base * quad - lin * lin -> 0 <= cubic -> is_before now t0 = false ->
  sp (root_dispersion ROps base lin quad cubic t0 now) (fun _ => True).
Proof.
  intros Ha Hd Hdet Hw Hb. unfold root_dispersion.
  eapply sp_bind. apply elapsed_sp, Hb. intros t (Ht & _).
  apply sp_then; [|intros; apply sp_ret; auto].
  apply sp_sqrt; auto. real_ops. apply root_dispersion_arg; auto.
Qed.

End Operations.
