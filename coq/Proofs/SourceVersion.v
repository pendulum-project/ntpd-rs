(* The protocol version state machine (C12): [step_ver] gives the version after any event
   as [ver_after]; [ver_after_upgrading] tabulates the negotiation state, [fixed_version]
   says that V4 and V5 are final along every run. *)
From V Require Import Model.Source Proofs.SourceBase Proofs.SourceIncoming.
Open Scope Z_scope.

(* The fallback from Upgraded reads the two low bits of the reach register
   (C12_reach_two_misses and the two theorems after it): received_packet sets the lowest. *)
Lemma reach_received_odd : forall r, reach_received r = 2 * (r / 2) + 1.
Proof.
  intros r. unfold reach_received. pose proof (Zmod_even r) as E. destruct (Z.even r); lia.
Qed.

Lemma outcome_ver : forall c s id p s' acts,
  outcome c s id p s' acts -> s_ver s' = ver_after_valid (s_ver s) p.
Proof. intros c s id p s' acts O. inversion O; subst; reflexivity. Qed.

(* handle_incoming: the version moves exactly when the packet is accepted *)
Theorem incoming_ver : forall c s now op s' acts,
  step_incoming c s now op = (s', acts) ->
  s_ver s' = match op with
             | Some p => match accepts s now p with
                         | Some _ => ver_after_valid (s_ver s) p
                         | None => s_ver s
                         end
             | None => s_ver s
             end.
Proof.
  intros c s now op s' acts H. apply step_incoming_cases in H.
  destruct H as [(-> & _ & [-> |(p & -> & ->)])|(p & id & -> & A & O)]; auto.
  rewrite A. eapply outcome_ver; eauto.
Qed.

(* the version after event [e] in state [s] *)
Definition ver_after (s : st) (e : event) : pver :=
  match e with
  | Timer _ _ => if timer_polls s then ver_at_timer s else s_ver s
  | Incoming now (Some p) =>
      match accepts s now p with Some _ => ver_after_valid (s_ver s) p | None => s_ver s end
  | Incoming _ None => s_ver s
  end.

Lemma step_ver : forall c s e s' acts, step c s e = Ok (s', acts) -> s_ver s' = ver_after s e.
Proof.
  intros c s [now d|now op] s' acts H; simpl in H.
  - eapply step_timer_ver; eauto.
  - injection H as H. apply incoming_ver in H. destruct op; exact H.
Qed.

(* V4UpgradingToV5 on a valid response: the marker switches, otherwise tries_left
   (u8, saturating) counts down and plain NTPv4 is resumed at 0 *)
Lemma ver_after_valid_upgrading : forall t p,
  ver_after_valid (Upgrading t) p =
  if is_upgrade p then Upgraded else if t <=? 1 then V4 else Upgrading (t - 1).
Proof.
  intros t p. simpl. destruct (is_upgrade p); [reflexivity|].
  destruct (Z.leb_spec t 1), (Z.eqb_spec (Z.max 0 (t - 1)) 0); try lia; [reflexivity|f_equal; lia].
Qed.

(* the transitions out of V4UpgradingToV5, event by event *)
Lemma ver_after_upgrading : forall s e t, s_ver s = Upgrading t ->
  ver_after s e =
  match e with
  | Incoming now (Some p) =>
      match accepts s now p with
      | Some _ => if is_upgrade p then Upgraded else if t <=? 1 then V4 else Upgrading (t - 1)
      | None => Upgrading t
      end
  | _ => Upgrading t
  end.
Proof.
  intros s e t E. destruct e as [now d|now [p|]]; simpl; unfold ver_at_timer; rewrite E.
  - destruct (timer_polls s); reflexivity.
  - destruct (accepts s now p); [apply ver_after_valid_upgrading|reflexivity].
  - reflexivity.
Qed.

(* the request a timer builds is of the version the timer moves to *)
Lemma timer_request : forall c s now d s' acts r,
  step_timer c s now d = Ok (s', acts) -> In (Send r) acts ->
  s_ver s' = ver_at_timer s
  /\ r_ver r = (if request_v5 (s_nts s) (ver_at_timer s) then 5 else 4)
  /\ r_upgrade r = request_upgrade (s_nts s) (ver_at_timer s).
Proof.
  intros c s now d s' acts r H I. pose proof (step_timer_ver _ _ _ _ _ _ H) as V.
  destruct (step_timer_send _ _ _ _ _ _ _ H I) as (P & _ & _ & _ & _ & Rv & Ru & _).
  rewrite P in V. auto.
Qed.

Definition send_ok (ver : Z) (upg : bool) (a : action) : Prop :=
  match a with Send r => r_ver r = ver /\ r_upgrade r = upg | _ => True end.

Lemma ver_at_timer_fixed : forall s, s_ver s = V4 \/ s_ver s = V5 -> ver_at_timer s = s_ver s.
Proof. intros s [E|E]; unfold ver_at_timer; rewrite E; reflexivity. Qed.

Lemma fixed_step : forall c s e s' acts v,
  v = V4 \/ v = V5 -> s_ver s = v -> step c s e = Ok (s', acts) ->
  s_ver s' = v /\ Forall (send_ok (match v with V4 => 4 | _ => 5 end) false) acts.
Proof.
  intros c s e s' acts v Hv E H.
  assert (F : ver_at_timer s = v) by (rewrite ver_at_timer_fixed; subst; auto).
  split.
  - rewrite (step_ver _ _ _ _ _ H). destruct e as [now d|now [p|]]; simpl; auto.
    + destruct (timer_polls s); congruence.
    + destruct (accepts s now p); auto. rewrite E. now apply ver_after_valid_fixed.
  - apply (Forall_on_send (fun r => r_ver r = _ /\ r_upgrade r = false)). intros r Hr.
    destruct (step_send _ _ _ _ _ _ H Hr) as (now & d & _ & _ & _ & _ & _ & _ & Rv & Ru & _).
    rewrite Rv, Ru, F. destruct Hv as [-> | ->]; destruct (s_nts s); auto.
Qed.

(* a source in state V4 (V5) stays there and only ever sends NTPv4 (NTPv5)
   requests without upgrade marker -- plain or NTS *)
Theorem fixed_version : forall c evs s s' tr v,
  v = V4 \/ v = V5 -> s_ver s = v -> run c s evs = Ok (s', tr) ->
  s_ver s' = v /\ Forall (send_ok (match v with V4 => 4 | _ => 5 end) false) (concat tr).
Proof.
  intros c evs s s' tr v Hv E H.
  apply (run_forall (fun _ => True) (fun s => s_ver s = v) _ c) with (4 := H);
    auto using Forall_trivial.
  intros s0 e s1 a _. now apply fixed_step.
Qed.

(* an NTS source keeps the version negotiated by key exchange *)
Theorem nts_version : forall c evs s s' tr,
  nts_ver_ok s -> s_nts s = true -> run c s evs = Ok (s', tr) ->
  s_ver s' = s_ver s /\ nts_ver_ok s'.
Proof.
  intros c evs s s' tr W N H.
  destruct (fixed_version c evs s s' tr (s_ver s) (W N) eq_refl H) as [X _].
  split; [assumption|]. intros _. rewrite X. auto.
Qed.
