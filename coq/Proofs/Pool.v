(* C35: the pool spawner keeps at most [count] sources, no two on one address and none on an
   ignored address.  [Safe] is carried through the draw loop, one operation and a whole history,
   at every prefix of the observable trace; the same for the bookkeeping of the NTS pool. *)
From V Require Import Model.Pool Gen.ConstSpawn Proofs.Common.
(* cbn is to leave the nat tests and the subtraction of the model (length cur <? n, count - n) as they are *)
Local Arguments Nat.ltb : simpl never.
Local Arguments Nat.leb : simpl never.
Local Arguments Nat.sub : simpl never.

(* site censuses the model was read against (pool.rs: push, retain / append, retain, pop;
   nts_pool.rs: push, retain) *)
Example census_pool_current : POOL_SITES_CURRENT_SOURCES = 2. Proof. reflexivity. Qed.
Example census_pool_known : POOL_SITES_KNOWN_IPS = 3. Proof. reflexivity. Qed.
Example census_ntspool_current : NTSPOOL_SITES_CURRENT_SOURCES = 2. Proof. reflexivity. Qed.

Lemma mem_addr_In : forall a l, mem_addr a l = true <-> In a l.
Proof.
  apply existsb_eqb_In. intros [a1 a2] [b1 b2]. unfold addr_eqb. cbn.
  rewrite andb_true_iff, !Z.eqb_eq. split; [intros [-> ->]; reflexivity | intros [= -> ->]; auto].
Qed.

Lemma memZ_In : forall z l, memZ z l = true <-> In z l.
Proof. apply existsb_eqb_In, Z.eqb_eq. Qed.

Definition not_ignored (c : cfg) (a : addr) : Prop := ~ In (fst a) (ignore c).

Lemma Safe_nil : forall c, Safe c [].
Proof. intros c; repeat split; cbn; [lia | constructor | tauto]. Qed.

Lemma cur_addrs_app : forall l1 l2, cur_addrs (l1 ++ l2) = cur_addrs l1 ++ cur_addrs l2.
Proof. intros; unfold cur_addrs; apply map_app. Qed.

Lemma Safe_push : forall c cur i a,
  Safe c cur -> (length cur < count c)%nat -> ~ In a (cur_addrs cur) -> not_ignored c a ->
  Safe c (cur ++ [(i, a)]).
Proof.
  intros c cur i a (Hlen & Hnd & Hign) Hlt Hnin Ha. repeat split.
  - rewrite app_length; cbn; lia.
  - rewrite cur_addrs_app. apply NoDup_snoc; assumption.
  - intros p Hp. apply in_app_or in Hp. destruct Hp as [Hp | [<- | []]]; auto.
Qed.

Lemma NoDup_map_filter : forall (A B : Type) (f : A -> B) (g : A -> bool) l,
  NoDup (map f l) -> NoDup (map f (filter g l)).
Proof.
  intros A B f g l; induction l as [| x l IH]; cbn; intros H; auto.
  apply NoDup_cons_iff in H. destruct H as [Hx Hl]. destruct (g x); cbn; auto.
  constructor; auto. intros Hin; apply Hx.
  apply in_map_iff in Hin. destruct Hin as [y [Hy Hin]]. apply filter_In in Hin.
  apply in_map_iff; exists y; tauto.
Qed.

Lemma filter_length_le : forall (A : Type) (g : A -> bool) l, (length (filter g l) <= length l)%nat.
Proof. intros A g l; induction l; cbn; auto. destruct (g a); cbn; lia. Qed.

(* The system sees the same SpawnEvents later and performs removals earlier than the spawner
   hears of them; what it has active is then a filtered sub-list of what the spawner has active
   at the moment of the last event processed, and Safe is closed under filtering. *)
Theorem Safe_filter : forall c act g, Safe c act -> Safe c (filter g act).
Proof.
  intros c act g (Hlen & Hnd & Hign). repeat split.
  - pose proof (filter_length_le _ g act). lia.
  - unfold cur_addrs. apply NoDup_map_filter; auto.
  - intros p Hp. apply filter_In in Hp. apply Hign; tauto.
Qed.

Lemma always_app : forall P t1 t2 acc,
  always P (t1 ++ t2) acc <-> always P t1 acc /\ always P t2 (active_from acc t1).
Proof.
  intros P t1; induction t1 as [| o t1 IH]; intros t2 acc; cbn.
  - split; [intros H; split; auto; destruct t2; cbn in *; tauto | tauto].
  - rewrite IH. tauto.
Qed.

Lemma always_head : forall P tr acc, always P tr acc -> P acc.
Proof. intros P [| o r] acc H; cbn in H; tauto. Qed.

Lemma always_prefix : forall P t1 t2 acc, always P (t1 ++ t2) acc -> P (active_from acc t1).
Proof.
  intros P t1 t2 acc H. apply always_app in H. destruct H as [_ H]. eapply always_head; eauto.
Qed.

Definition spawned_obs (ev : list (Z * addr)) : list obs := map (fun e => Spawned (fst e) (snd e)) ev.

Lemma draw_spec : forall c kn cur nid,
  Safe c cur -> Forall (not_ignored c) kn ->
  let r := draw (count c) kn cur nid in
  Safe c (current (fst r)) /\ Forall (not_ignored c) (known (fst r))
  /\ always (Safe c) (spawned_obs (snd r)) cur
  /\ active_from cur (spawned_obs (snd r)) = current (fst r).
Proof.
  intros c kn; induction kn as [| a kn IH]; intros cur nid HS Hkn; cbn.
  - destruct (length cur <? count c)%nat; cbn; (split; [| split; [| split]]); auto.
  - destruct (length cur <? count c)%nat eqn:Hlt; cbn.
    + apply Forall_cons_iff in Hkn. destruct Hkn as [Ha Hkn].
      destruct (mem_addr a (cur_addrs cur)) eqn:Hm.
      * apply IH; auto.
      * apply not_true_iff_false in Hm. rewrite mem_addr_In in Hm. apply Nat.ltb_lt in Hlt.
        assert (HS' : Safe c (cur ++ [(nid, a)])) by (apply Safe_push; auto).
        specialize (IH (cur ++ [(nid, a)]) (nid + 1) HS' Hkn). cbn in IH.
        destruct IH as (I1 & I2 & I3 & I4). cbn. (split; [| split; [| split]]); auto.
    + (split; [| split; [| split]]); auto.
Qed.

(* the spawner's state between operations: its sources are Safe and no ignored address waits in known_ips *)
Definition Inv (c : cfg) (st : pool) : Prop :=
  Safe c (current st) /\ Forall (not_ignored c) (known st).

Lemma Inv_pool0 : forall c, Inv c pool0.
Proof. intros c; split; [apply Safe_nil | constructor]. Qed.

Lemma after_lookup_not_ignored : forall c st l, Forall (not_ignored c) (after_lookup c st l).
Proof.
  intros c st l. apply Forall_forall. intros a Ha. unfold after_lookup in Ha.
  apply filter_In in Ha. destruct Ha as [_ Hk]. unfold keep in Hk.
  apply andb_true_iff in Hk. destruct Hk as [_ Hk]. apply negb_true_iff, not_true_iff_false in Hk.
  rewrite memZ_In in Hk. exact Hk.
Qed.

Lemma step_spec : forall c st o, Inv c st ->
  let r := step c st o in
  Inv c (fst r) /\ always (Safe c) (snd r) (current st)
  /\ active_from (current st) (snd r) = current (fst r).
Proof.
  intros c st o [HS Hk]. destruct o as [dns | id rsn]; cbn.
  - unfold try_spawn_with.
    destruct (count c <=? length (current st))%nat.
    { cbn. split; [split; auto | split; auto]. }
    destruct (length (known st) <? count c - length (current st))%nat.
    + destruct dns as [l |].
      * pose proof (draw_spec c (after_lookup c st l) (current st) (next_id st) HS
                      (after_lookup_not_ignored c st l)) as H. cbn in H.
        destruct H as (H1 & H2 & H3 & H4). split; [split; auto | split; auto].
      * cbn. split; [split; auto | split; auto].
    + pose proof (draw_spec c (known st) (current st) (next_id st) HS Hk) as H. cbn in H.
      destruct H as (H1 & H2 & H3 & H4). split; [split; auto | split; auto].
  - pose proof (Safe_filter c (current st) (fun p => negb (fst p =? id)) HS) as HD.
    split; [split; auto | split; auto].
Qed.

Lemma exec_spec : forall c ops st, Inv c st ->
  let r := exec c ops st in
  Inv c (fst r) /\ always (Safe c) (snd r) (current st)
  /\ active_from (current st) (snd r) = current (fst r).
Proof.
  intros c ops; induction ops as [| o ops IH]; intros st HI; cbn.
  - destruct HI as [HS Hk]. split; [split; auto | split; auto].
  - pose proof (step_spec c st o HI) as Hs. cbn in Hs. destruct Hs as (S1 & S2 & S3).
    fold (step c st o) in *.
    specialize (IH (fst (step c st o)) S1). cbn in IH. destruct IH as (E1 & E2 & E3).
    fold (exec c ops (fst (step c st o))) in *.
    split; [exact E1 |]. split.
    + apply always_app. split; auto. rewrite S3; auto.
    + unfold active_from in *. rewrite fold_left_app. rewrite S3. exact E3.
Qed.

(* after every prefix of the observable trace of any history, the active sources are Safe *)
Theorem pool_always_safe : forall c ops, always (Safe c) (trace c ops) [].
Proof. intros c ops. apply (exec_spec c ops pool0 (Inv_pool0 c)). Qed.

Theorem pool_safe_at_every_point : forall c ops t1 t2,
  trace c ops = t1 ++ t2 -> Safe c (active t1).
Proof.
  intros c ops t1 t2 H. pose proof (pool_always_safe c ops) as HA. rewrite H in HA.
  apply always_prefix in HA. exact HA.
Qed.

Definition NSafe (n : nat) (cur : list (Z * (Z * Z))) : Prop :=
  (length cur <= n)%nat /\ NoDup (nnames cur) /\ NoDup (naddrs cur).

Lemma nts_iter_spec : forall n k outs st,
  (length (ncurrent st) + k <= n)%nat ->
  NoDup (nnames (ncurrent st)) -> NoDup (naddrs (ncurrent st)) ->
  NSafe n (ncurrent (fst (nts_iter_with true k outs st))).
Proof.
  intros n k; induction k as [| k IH]; intros outs st Hlen Hnd Hna; cbn.
  - repeat split; auto; lia.
  - destruct outs as [| o r]; cbn; [repeat split; auto; lia |].
    destruct o as [| srv remote resolved | |]; cbn; try (repeat split; auto; lia).
    + set (key := match srv with Some s => s | None => remote end).
      destruct (has_remote key (ncurrent st)) eqn:Hh; [apply IH; auto; lia |].
      destruct resolved as [a |]; [| apply IH; auto; lia].
      destruct (has_addr a (ncurrent st)) eqn:Ha; cbn; [apply IH; auto; lia |].
      apply IH; cbn.
      * rewrite app_length; cbn; lia.
      * unfold nnames. rewrite map_app; cbn. apply NoDup_snoc; auto.
        apply not_true_iff_false in Hh. unfold has_remote in Hh. rewrite memZ_In in Hh. exact Hh.
      * unfold naddrs. rewrite map_app; cbn. apply NoDup_snoc; auto.
        apply not_true_iff_false in Ha. unfold has_addr in Ha. rewrite memZ_In in Ha. exact Ha.
    + apply IH; auto; lia.
Qed.

Theorem nts_pool_safe : forall n ops st,
  NSafe n (ncurrent st) -> NSafe n (ncurrent (nts_exec n ops st)).
Proof.
  unfold nts_exec.
  intros n ops; induction ops as [| o ops IH]; intros st HS; cbn; auto.
  destruct o as [outs | id]; apply IH.
  - destruct HS as (Hlen & Hnd & Hna). unfold nts_try_spawn_with. apply nts_iter_spec; auto; lia.
  - destruct HS as (Hlen & Hnd & Hna). repeat split; cbn.
    + pose proof (filter_length_le _ (fun p : Z * (Z * Z) => negb (fst p =? id)) (ncurrent st)). lia.
    + unfold nnames. apply NoDup_map_filter; auto.
    + unfold naddrs. apply NoDup_map_filter; auto.
Qed.
