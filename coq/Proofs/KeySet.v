(* Lemmas about Model/KeySet.v (C26).  The AEAD is a Section variable pair with
   the hypotheses of an ideal deterministic AEAD; nothing is an axiom. *)
From V Require Import Model.KeySet Proofs.Common Gen.ConstKeyset.
From Coq Require Import ZifyBool.
(* [lia] is to see through the / 256 and mod 256 of [be_enc] and the mod 2^32 of [wrap] *)
Ltac Zify.zify_post_hook ::= Z.div_mod_to_equations.

(* Site census (numbers regenerated from the sources on every run; see tools/consts/keyset.py).
   The model has exactly one panic site (the index in encode_cookie); every other
   counted site was read and is guarded (unwraps on slices of checked length,
   `.expect` on encrypt into a buffer of sufficient size and on the clock).
   A change of these counts means the code has a site the model does not know. *)
Example census_keyset_rs :
  (CENSUS_UNWRAP, CENSUS_EXPECT, CENSUS_KEYS_INDEX, CENSUS_OUTPUT_INDEX, CENSUS_COOKIE_INDEX,
   CENSUS_BUF_INDEX) = (12, 2, 2, 3, 5, 6).
Proof. reflexivity. Qed.
Example layout_constants :
  (COOKIE_ID_LEN, COOKIE_LEN_LEN, COOKIE_NONCE_LEN, ENCODE_TAG_LEN, ENCODE_NONCE_LEN, FILE_HEADER_LEN, FILE_KEY_LEN)
  = (4, 2, 16, 16, 16, 20, 64).
Proof. reflexivity. Qed.

Lemma skipn_app_le {A} (a b : list A) n : (n <= length a)%nat -> skipn n (a ++ b) = skipn n a ++ b.
Proof.
  intros H. rewrite skipn_app. replace (n - length a)%nat with 0%nat by lia. reflexivity.
Qed.

Lemma split_at {A} n (b : list A) : (n <= length b)%nat -> exists a r, b = a ++ r /\ length a = n.
Proof.
  intros H. exists (firstn n b), (skipn n b). split; [symmetry; apply firstn_skipn|apply firstn_length_le, H].
Qed.

Lemma app_inj_len {A} (a a' b b' : list A) : a ++ b = a' ++ b' -> length a = length a' -> a = a' /\ b = b'.
Proof.
  intros H Hl. split.
  - rewrite <- (firstn_app_len a b (length a) eq_refl), H. apply firstn_app_len. auto.
  - rewrite <- (skipn_app_len a b (length a) eq_refl), H. apply skipn_app_len. auto.
Qed.

Lemma prefix_split {A} (p s h c : list A) :
  p ++ s = h ++ c -> (length h <= length p)%nat -> exists c', p = h ++ c' /\ c = c' ++ s.
Proof.
  intros H L. exists (skipn (length h) p). split.
  - rewrite <- (firstn_app_len h c (length h) eq_refl) at 1. rewrite <- H, firstn_app.
    replace (length h - length p)%nat with 0%nat by lia. cbn [firstn]. rewrite app_nil_r. symmetry. apply firstn_skipn.
  - rewrite <- (skipn_app_len h c (length h) eq_refl), <- H. apply skipn_app_le, L.
Qed.

Lemma lenZ_app {A} (a b : list A) : lenZ (a ++ b) = lenZ a + lenZ b.
Proof. unfold lenZ. rewrite app_length. lia. Qed.

Lemma lenZ_nonneg {A} (a : list A) : 0 <= lenZ a.
Proof. unfold lenZ. lia. Qed.

Lemma be_enc_length n z : length (be_enc n z) = n.
Proof. revert z. induction n; intros; cbn; [reflexivity|]. rewrite app_length, IHn. cbn. lia. Qed.

Lemma be_dec_snoc l b : be_dec (l ++ [b]) = be_dec l * 256 + b.
Proof. unfold be_dec. rewrite fold_left_app. reflexivity. Qed.

Lemma be_dec_enc n z : be_dec (be_enc n z) = z mod 256 ^ Z.of_nat n.
Proof.
  revert z. induction n; intros z.
  - cbn. rewrite Z.mod_1_r. reflexivity.
  - cbn [be_enc]. rewrite be_dec_snoc, IHn.
    rewrite Nat2Z.inj_succ, Z.pow_succ_r by lia.
    rewrite Z.rem_mul_r by lia. lia.
Qed.

Lemma be_enc_bytes_ok n z : bytes_ok (be_enc n z).
Proof.
  revert z. induction n; intros z; cbn; [constructor|].
  apply Forall_app. split; [apply IHn|]. constructor; [|constructor]. unfold is_byte. lia.
Qed.

Lemma be_dec_range l n : bytes_ok l -> length l = n -> 0 <= be_dec l < 256 ^ Z.of_nat n.
Proof.
  intros H <-. induction l using rev_ind.
  - cbn. lia.
  - apply Forall_app in H. destruct H as [H1 H2]. inversion H2; subst.
    rewrite be_dec_snoc, app_length, Nat2Z.inj_add, Z.pow_add_r by lia. cbn [length].
    specialize (IHl H1). unfold is_byte in *. nia.
Qed.

Lemma be_enc_dec l : bytes_ok l -> be_enc (length l) (be_dec l) = l.
Proof.
  induction l using rev_ind; intros H; [reflexivity|].
  apply Forall_app in H. destruct H as [H1 H2]. inversion H2; subst. unfold is_byte in *.
  rewrite app_length, be_dec_snoc. cbn [length]. rewrite Nat.add_1_r. cbn [be_enc].
  replace ((be_dec l * 256 + x) / 256) with (be_dec l) by lia.
  replace ((be_dec l * 256 + x) mod 256) with x by lia.
  rewrite IHl by assumption. reflexivity.
Qed.

Lemma cookie_fields (I L N R : bytes) :
  length I = 4%nat -> length L = 2%nat -> length N = 16%nat ->
  let b := I ++ L ++ N ++ R in
  ck_id b = be_dec I /\ ck_len b = be_dec L /\ ck_nonce b = N /\
  skipn (Z.to_nat hdr_len) b = R /\ lenZ b = hdr_len + lenZ R.
Proof.
  intros HI HL HN b. subst b. unfold ck_id, ck_len, ck_nonce, hdr_len.
  (* each field is read at its offset behind the ones before it *)
  change (Z.to_nat COOKIE_ID_LEN) with 4%nat. change (Z.to_nat COOKIE_LEN_LEN) with 2%nat.
  change (Z.to_nat COOKIE_NONCE_LEN) with 16%nat.
  change (Z.to_nat (COOKIE_ID_LEN + COOKIE_LEN_LEN)) with (4 + 2)%nat.
  change (Z.to_nat (COOKIE_ID_LEN + COOKIE_LEN_LEN + COOKIE_NONCE_LEN)) with (4 + (2 + 16))%nat.
  rewrite !skipn_add, !(skipn_app_len I _ 4 HI), !(skipn_app_len L _ 2 HL), (skipn_app_len N _ 16 HN),
    !firstn_app_len by assumption.
  rewrite !lenZ_app. unfold lenZ. rewrite HI, HL, HN. repeat split.
  change (COOKIE_ID_LEN + COOKIE_LEN_LEN + COOKIE_NONCE_LEN) with 22. lia.
Qed.

Lemma cookie_split (b : bytes) :
  hdr_len <= lenZ b ->
  exists I L N R, b = I ++ L ++ N ++ R /\ length I = 4%nat /\ length L = 2%nat /\ length N = 16%nat.
Proof.
  unfold hdr_len, lenZ. change (COOKIE_ID_LEN + COOKIE_LEN_LEN + COOKIE_NONCE_LEN) with 22. intros H.
  destruct (split_at 4 b) as (I & b1 & -> & HI); [lia|]. rewrite app_length in H.
  destruct (split_at 2 b1) as (L & b2 & -> & HL); [lia|]. rewrite app_length in H.
  destruct (split_at 16 b2) as (N & R & -> & HN); [lia|]. eauto 10.
Qed.

(* Within its declared length, a byte string of at least 22 bytes whose id and
   length fields are bytes is its four fields written out again. *)
Lemma cookie_reassemble (b : bytes) :
  hdr_len <= lenZ b -> bytes_ok (firstn 6 b) ->
  0 <= ck_id b < 2 ^ 32 /\ 0 <= ck_len b /\
  firstn (22 + Z.to_nat (ck_len b)) b = be_enc 4 (ck_id b) ++ be_enc 2 (ck_len b) ++ ck_nonce b ++ ck_ct b.
Proof.
  intros Hlen Hb. destruct (cookie_split b Hlen) as (I & L & N & R & -> & HI & HL & HN).
  destruct (cookie_fields I L N R HI HL HN) as (Fi & Fl & Fn & Fr & _). cbv zeta in *.
  unfold ck_ct. rewrite Fr, Fi, Fl, Fn.
  rewrite (app_assoc I L), firstn_app_len in Hb by (rewrite app_length; lia).
  apply Forall_app in Hb. destruct Hb as [HbI HbL].
  pose proof (be_dec_range I 4 HbI HI) as RI. pose proof (be_dec_range L 2 HbL HL) as RL.
  split; [exact RI|]. split; [lia|].
  replace (be_enc 4 (be_dec I)) with I by (rewrite <- HI; symmetry; apply be_enc_dec, HbI).
  replace (be_enc 2 (be_dec L)) with L by (rewrite <- HL; symmetry; apply be_enc_dec, HbL).
  replace 22%nat with (length (I ++ L ++ N)) by (rewrite !app_length; lia).
  replace (I ++ L ++ N ++ R) with ((I ++ L ++ N) ++ R) by (rewrite <- !app_assoc; reflexivity).
  rewrite firstn_app_2, <- !app_assoc. reflexivity.
Qed.

(* the two algorithms with their key widths *)
Definition alg_width (alg w : Z) : Prop :=
  (alg = ALG_SIV_CMAC_256 /\ w = KEY_WIDTH_256) \/ (alg = ALG_SIV_CMAC_512 /\ w = KEY_WIDTH_512).

Lemma parse_plaintext_alg alg w kb :
  alg_width alg w ->
  parse_plaintext (be_enc 2 alg ++ kb) =
    if lenZ kb =? 2 * w
    then Ok {| c_alg := alg; c_s2c := firstn (Z.to_nat w) kb; c_c2s := skipn (Z.to_nat w) kb |}
    else Err err_decrypt.
Proof. intros [[-> ->]|[-> ->]]; reflexivity. Qed.

Lemma parse_plaintext_ok c : wf_cookie c -> parse_plaintext (plaintext c) = Ok c.
Proof.
  destruct c as [alg s c]. unfold wf_cookie, plaintext. cbn [c_alg c_s2c c_c2s].
  intros (_ & _ & [(-> & Hs & Hc)|(-> & Hs & Hc)]);
    [rewrite (parse_plaintext_alg _ KEY_WIDTH_256) by (left; split; reflexivity)
    |rewrite (parse_plaintext_alg _ KEY_WIDTH_512) by (right; split; reflexivity)];
    rewrite lenZ_app; replace (_ =? _) with true by lia;
    unfold lenZ in *; rewrite firstn_app_len, skipn_app_len by lia; reflexivity.
Qed.

Lemma parse_plaintext_inv p c : bytes_ok p -> parse_plaintext p = Ok c -> p = plaintext c /\ wf_cookie c.
Proof.
  intros Hp. destruct p as [|b0 [|b1 kb]]; try discriminate. cbn [parse_plaintext].
  change (b0 :: b1 :: kb) with ([b0; b1] ++ kb) in *. apply Forall_app in Hp. destruct Hp as [Hb Hkb].
  apply be_enc_dec in Hb. cbn [length] in Hb. set (alg := be_dec [b0; b1]) in *.
  (* what is accepted, for either algorithm *)
  assert (K : forall w, alg_width alg w -> lenZ kb = 2 * w ->
            let c := {| c_alg := alg; c_s2c := firstn (Z.to_nat w) kb; c_c2s := skipn (Z.to_nat w) kb |} in
            [b0; b1] ++ kb = plaintext c /\ wf_cookie c).
  { intros w A L. unfold plaintext, wf_cookie. cbn [c_alg c_s2c c_c2s]. rewrite Hb, firstn_skipn.
    split; [reflexivity|]. split; [apply Forall_firstn, Hkb|]. split; [apply Forall_skipn, Hkb|].
    unfold lenZ in *. rewrite firstn_length, skipn_length.
    destruct A as [[-> ->]|[-> ->]]; [left|right]; (split; [reflexivity|]);
      change KEY_WIDTH_256 with 32 in *; change KEY_WIDTH_512 with 64 in *; lia. }
  destruct (alg =? ALG_SIV_CMAC_256) eqn:E1; [|destruct (alg =? ALG_SIV_CMAC_512) eqn:E3; [|discriminate]];
    (destruct (lenZ kb =? _) eqn:E2; [|discriminate]); intros [= <-];
    [apply (K KEY_WIDTH_256); [left|] | apply (K KEY_WIDTH_512); [right|]]; lia.
Qed.

Lemma parse_plaintext_err p : parse_plaintext p = Err err_decrypt \/ exists c, parse_plaintext p = Ok c.
Proof.
  destruct p as [|b0 [|b1 kb]]; cbn [parse_plaintext]; auto.
  repeat match goal with |- context [if ?x then _ else _] => destruct x end; eauto.
Qed.

Lemma plaintext_len c : wf_cookie c -> lenZ (plaintext c) = 66 \/ lenZ (plaintext c) = 130.
Proof.
  intros H. unfold plaintext. rewrite !lenZ_app.
  assert (lenZ (be_enc 2 (c_alg c)) = 2) by (unfold lenZ; rewrite be_enc_length; reflexivity).
  destruct H as (_ & _ & H). change KEY_WIDTH_256 with 32 in H. change KEY_WIDTH_512 with 64 in H. lia.
Qed.

Lemma plaintext_bytes_ok c : wf_cookie c -> bytes_ok (plaintext c).
Proof.
  intros (H1 & H2 & _). unfold plaintext. apply Forall_app. split; [apply be_enc_bytes_ok|].
  apply Forall_app. split; assumption.
Qed.

Lemma wrap32_range z : 0 <= wrap 32 z < 2 ^ 32.
Proof. unfold wrap. apply Z.mod_pos_bound. reflexivity. Qed.

Lemma rotate_keys h ks f : keys (rotate h ks f) = skipn (length (keys ks) - h) (keys ks ++ [f]).
Proof. cbn. rewrite skipn_app_le by lia. reflexivity. Qed.

Lemma rotate_many_cons h ks f fs : rotate_many h ks (f :: fs) = rotate_many h (rotate h ks f) fs.
Proof. reflexivity. Qed.

Lemma rotate_many_snoc h ks fs f : rotate_many h ks (fs ++ [f]) = rotate h (rotate_many h ks fs) f.
Proof. unfold rotate_many. rewrite fold_left_app. reflexivity. Qed.

(* closed form of any non-empty sequence of rotations *)
Lemma rotate_many_closed fs : forall h ks, fs <> [] ->
  let D := (length (keys ks) + length fs - (h + 1))%nat in
  keys (rotate_many h ks fs) = skipn D (keys ks ++ fs) /\
  id_offset (rotate_many h ks fs) = wrap 32 (id_offset ks + Z.of_nat D).
Proof.
  induction fs as [|f fs IH]; intros h ks Hne; [congruence|].
  destruct fs as [|g fs'].
  - cbn [rotate_many fold_left length]. split.
    + rewrite rotate_keys. f_equal. lia.
    + cbn [rotate id_offset]. rewrite wrap_add_wrap_r. f_equal. f_equal. lia.
  - rewrite rotate_many_cons. destruct (IH h (rotate h ks f)) as [Hk Ho]; [discriminate|].
    cbv zeta. rewrite Hk, Ho. clear Hk Ho IH.
    set (d1 := (length (keys ks) - h)%nat).
    assert (Hl : length (keys (rotate h ks f)) = (length (keys ks) + 1 - d1)%nat).
    { rewrite rotate_keys, skipn_length, app_length. cbn. lia. }
    rewrite Hl. split.
    + rewrite rotate_keys. fold d1.
      rewrite <- skipn_app_le by (rewrite app_length; cbn; lia).
      rewrite <- app_assoc. cbn [app]. rewrite <- skipn_add. f_equal.
      cbn [length]. lia.
    + cbn [rotate id_offset]. fold d1. rewrite wrap_add_wrap_r, wrap_add_wrap_l. f_equal.
      cbn [length]. lia.
Qed.

Lemma rotate_many_primary h ks fs : fs <> [] ->
  primary (rotate_many h ks fs) = wrap 32 (wrap 32 (lenZ (keys (rotate_many h ks fs))) - 1).
Proof.
  intros H. destruct (exists_last H) as [fs' [f ->]]. rewrite rotate_many_snoc. reflexivity.
Qed.

Lemma rotate_length_le h ks f : lenZ (keys (rotate h ks f)) <= lenZ (keys ks) + 1.
Proof. unfold lenZ. rewrite rotate_keys, skipn_length, app_length. cbn. lia. Qed.

Lemma rotate_many_length_le h fs : forall ks, lenZ (keys (rotate_many h ks fs)) <= lenZ (keys ks) + lenZ fs.
Proof.
  induction fs as [|f fs IH]; intros ks.
  - cbn. unfold lenZ. cbn. lia.
  - rewrite rotate_many_cons. specialize (IH (rotate h ks f)). pose proof (rotate_length_le h ks f).
    unfold lenZ in *. cbn [length]. lia.
Qed.

Lemma rotate_newest h ks f : lenZ (keys ks) + 1 < 2 ^ 32 -> newest (rotate h ks f).
Proof.
  intros H. pose proof (rotate_length_le h ks f) as Hl.
  assert (H1 : 1 <= lenZ (keys (rotate h ks f))).
  { unfold lenZ. rewrite rotate_keys, skipn_length, app_length. cbn. lia. }
  assert (Hp : primary (rotate h ks f) = lenZ (keys (rotate h ks f)) - 1).
  { cbn [rotate primary]. change (skipn (length (keys ks) - h) (keys ks) ++ [f]) with (keys (rotate h ks f)).
    rewrite (wrap_small 32 (lenZ _)) by lia. apply wrap_small. lia. }
  unfold newest, KeysOk. rewrite Hp. repeat split; try lia; cbn [rotate id_offset]; apply wrap32_range.
Qed.

Lemma rotate_many_newest h fs ks :
  newest ks -> lenZ (keys ks) + lenZ fs < 2 ^ 32 -> newest (rotate_many h ks fs).
Proof.
  intros Hn Hb. destruct fs as [|f0 fs0] eqn:E; [exact Hn|]. rewrite <- E in *.
  assert (Hne : fs <> []) by (rewrite E; discriminate).
  destruct (exists_last Hne) as [fs' [f ->]]. rewrite rotate_many_snoc. apply rotate_newest.
  pose proof (rotate_many_length_le h fs' ks). rewrite lenZ_app in Hb. change (lenZ [f]) with 1 in Hb. lia.
Qed.

Lemma new_keyset_newest k : newest (new_keyset k).
Proof. unfold newest, KeysOk, new_keyset, lenZ. cbn. lia. Qed.

Lemma nth_key_nth_error l i : 0 <= i -> nth_key l i = nth_error l (Z.to_nat i).
Proof.
  intros H. unfold nth_key. destruct ((0 <=? i) && (i <? lenZ l)) eqn:E; [reflexivity|].
  symmetry. apply nth_error_None. unfold lenZ in *. lia.
Qed.

Section AEAD.
  Variable enc : bytes -> bytes -> bytes -> bytes -> bytes.
  Variable dec : bytes -> bytes -> bytes -> bytes -> option bytes.

  Hypothesis dec_enc : aead_correct enc dec.
  Hypothesis dec_sound : aead_sound enc dec.
  Hypothesis enc_len : aead_tag16 enc.
  Hypothesis dec_bytes : aead_bytes dec.
  Hypothesis key_sep : aead_key_separation enc dec.

  (* [Proof using dec enc] where a proof needs only one of the two: every lemma of the
     section is closed over both, as the theorems of C26 are stated *)
  Lemma encode_ok ks c nonce :
    KeysOk ks -> exists k, nth_error (keys ks) (Z.to_nat (primary ks)) = Some k /\
      encode_cookie enc ks c nonce =
        Ok (be_enc 4 (wrap 32 (primary ks + id_offset ks))
            ++ be_enc 2 (wrap 16 (lenZ (enc k nonce [] (plaintext c)))) ++ nonce ++ enc k nonce [] (plaintext c)).
  Proof using dec enc.
    intros [Hp _]. unfold encode_cookie. rewrite nth_key_nth_error by lia.
    destruct (nth_error (keys ks) (Z.to_nat (primary ks))) as [k|] eqn:E.
    - exists k. split; reflexivity.
    - apply nth_error_None in E. unfold lenZ in Hp. lia.
  Qed.

  Lemma encode_inv ks c nonce b :
    KeysOk ks -> encode_cookie enc ks c nonce = Ok b ->
    exists k, nth_error (keys ks) (Z.to_nat (primary ks)) = Some k /\
      b = be_enc 4 (wrap 32 (primary ks + id_offset ks))
          ++ be_enc 2 (wrap 16 (lenZ (enc k nonce [] (plaintext c)))) ++ nonce ++ enc k nonce [] (plaintext c).
  Proof using dec enc.
    intros Hok He. destruct (encode_ok ks c nonce Hok) as (k & Hk & He0). exists k. split; [exact Hk|congruence].
  Qed.

  Lemma decode_total ks b : decode_cookie dec ks b = Err err_decrypt \/ exists c, decode_cookie dec ks b = Ok c.
  Proof using dec enc.
    unfold decode_cookie.
    destruct (lenZ b <? hdr_len); auto.
    destruct (nth_key (keys ks) _); auto.
    destruct (lenZ (skipn (Z.to_nat hdr_len) b) <? ck_len b); auto.
    destruct (dec _ _ _ _); auto. apply parse_plaintext_err.
  Qed.

  (* 66 or 130 bytes of plaintext and the tag *)
  Lemma ct_len c k nonce :
    wf_cookie c -> lenZ (enc k nonce [] (plaintext c)) = 82 \/ lenZ (enc k nonce [] (plaintext c)) = 146.
  Proof using enc_len.
    intros Hwf. rewrite enc_len. change ENCODE_TAG_LEN with 16. destruct (plaintext_len c Hwf); lia.
  Qed.

  (* decoding, under any key set [ks'], a cookie issued by [ks]: its id selects
     a key of [ks'], which is tried on the ciphertext *)
  Lemma decode_issued ks ks' c nonce b :
    KeysOk ks -> wf_cookie c -> lenZ nonce = 16 -> encode_cookie enc ks c nonce = Ok b ->
    exists k, nth_error (keys ks) (Z.to_nat (primary ks)) = Some k /\
      decode_cookie dec ks' b =
        match nth_error (keys ks') (Z.to_nat (wrap 32 (wrap 32 (primary ks + id_offset ks) - id_offset ks'))) with
        | None => Err err_decrypt
        | Some k' => match dec k' nonce [] (enc k nonce [] (plaintext c)) with
                     | None => Err err_decrypt
                     | Some p => parse_plaintext p
                     end
        end.
  Proof using dec enc_len.
    intros Hok Hwf Hn He. destruct (encode_inv ks c nonce b Hok He) as (k & Hk & ->). exists k. split; [exact Hk|].
    set (ct := enc k nonce [] (plaintext c)). set (id := wrap 32 (primary ks + id_offset ks)).
    pose proof (ct_len c k nonce Hwf) as Hct. fold ct in Hct.
    destruct (cookie_fields (be_enc 4 id) (be_enc 2 (wrap 16 (lenZ ct))) nonce ct) as (Fi & Fl & Fn & Fr & Flen);
      try apply be_enc_length. { unfold lenZ in Hn. lia. }
    cbv zeta in *. unfold decode_cookie, ck_ct. rewrite nth_key_nth_error by apply (proj1 (wrap32_range _)).
    rewrite Fr, Fl, Fn, Fi, Flen, !be_dec_enc.
    change (256 ^ Z.of_nat 4) with (2 ^ 32). change (256 ^ Z.of_nat 2) with (2 ^ 16).
    rewrite (Z.mod_small id) by apply wrap32_range. fold (wrap 16 (wrap 16 (lenZ ct))).
    rewrite !(wrap_small 16 (lenZ ct)) by (change (2 ^ 16) with 65536; lia).
    replace (hdr_len + lenZ ct <? hdr_len) with false by lia.
    destruct (nth_error (keys ks') _) as [k'|]; [|reflexivity].
    rewrite Z.ltb_irrefl. unfold lenZ. rewrite Nat2Z.id, firstn_all. reflexivity.
  Qed.

  Lemma open_own k nonce c :
    wf_cookie c ->
    match dec k nonce [] (enc k nonce [] (plaintext c)) with
    | None => Err err_decrypt
    | Some p => parse_plaintext p
    end = Ok c.
  Proof using dec_enc.
    intros Hwf. rewrite dec_enc by (apply plaintext_bytes_ok, Hwf). apply parse_plaintext_ok, Hwf.
  Qed.

  Theorem roundtrip ks c nonce :
    KeysOk ks -> wf_cookie c -> lenZ nonce = 16 ->
    exists b, encode_cookie enc ks c nonce = Ok b /\ decode_cookie dec ks b = Ok c.
  Proof using dec dec_enc enc_len.
    intros Hok Hwf Hn. destruct (encode_ok ks c nonce Hok) as (k & _ & He).
    eexists. split; [exact He|].
    destruct (decode_issued ks ks c nonce _ Hok Hwf Hn He) as (k' & Hk' & ->).
    replace (wrap 32 (wrap 32 (primary ks + id_offset ks) - id_offset ks)) with (primary ks)
      by (destruct Hok as (Hp & Ho & Hl); unfold wrap; change (2 ^ 32) with 4294967296 in *; lia).
    rewrite Hk'. apply open_own, Hwf.
  Qed.

  (* the rotation window, for a cookie issued under any valid [primary] *)
  Theorem window_general h ks fs c nonce :
    KeysOk ks -> wf_cookie c -> lenZ nonce = 16 -> lenZ (keys ks) + lenZ fs < 2 ^ 32 ->
    exists b, encode_cookie enc ks c nonce = Ok b /\
      decode_cookie dec (rotate_many h ks fs) b =
        if (match fs with [] => true | _ => (length (keys ks) + length fs - (h + 1) <=? Z.to_nat (primary ks))%nat end)
        then Ok c else Err err_decrypt.
  Proof using dec dec_enc enc_len.
    intros Hok Hwf Hn Hb. destruct (roundtrip ks c nonce Hok Hwf Hn) as (b & He & Hd).
    exists b. split; [exact He|].
    destruct fs as [|f0 fs0] eqn:Efs; [exact Hd|]. rewrite <- Efs in *.
    assert (Hne : fs <> []) by (rewrite Efs; discriminate).
    destruct (rotate_many_closed fs h ks Hne) as [Hk Ho]. cbv zeta in Hk, Ho.
    set (D := (length (keys ks) + length fs - (h + 1))%nat) in *.
    replace (match fs with [] => true | _ :: _ => (D <=? Z.to_nat (primary ks))%nat end)
      with (D <=? Z.to_nat (primary ks))%nat by (rewrite Efs; reflexivity).
    destruct (decode_issued ks (rotate_many h ks fs) c nonce b Hok Hwf Hn He) as (k & Hkp & ->).
    rewrite Ho, wrap_sub_wrap, Hk. destruct Hok as (Hp & Hoff & Hl). unfold lenZ in *.
    destruct (D <=? Z.to_nat (primary ks))%nat eqn:ED.
    - rewrite wrap_small, nth_error_skipn by lia.
      replace (D + Z.to_nat (primary ks - Z.of_nat D))%nat with (Z.to_nat (primary ks)) by lia.
      rewrite nth_error_app1, Hkp by lia. apply open_own, Hwf.
    - replace (nth_error _ _) with (@None bytes); [reflexivity|].
      symmetry. apply nth_error_None. rewrite skipn_length, app_length.
      unfold wrap. change (2 ^ 32) with 4294967296 in *. lia.
  Qed.

  (* the window for cookies issued under the newest key (what the provider does) *)
  Theorem window h ks0 fs1 fs2 c nonce :
    newest ks0 -> wf_cookie c -> lenZ nonce = 16 ->
    lenZ (keys ks0) + lenZ fs1 + lenZ fs2 < 2 ^ 32 ->
    let ks1 := rotate_many h ks0 fs1 in
    let ks2 := rotate_many h ks1 fs2 in
    exists b, encode_cookie enc ks1 c nonce = Ok b /\
      decode_cookie dec ks2 b = if (length fs2 <=? h)%nat then Ok c else Err err_decrypt.
  Proof using dec dec_enc enc_len.
    intros Hn Hwf Hnl Hb ks1 ks2.
    pose proof (lenZ_nonneg fs2) as Hf2. pose proof (lenZ_nonneg fs1) as Hf1.
    assert (Hn1 : newest ks1) by (apply rotate_many_newest; [assumption|lia]).
    pose proof (rotate_many_length_le h fs1 ks0) as Hl1. fold ks1 in Hl1.
    destruct Hn1 as [Hok1 Hp1].
    destruct (window_general h ks1 fs2 c nonce Hok1 Hwf Hnl) as (b & He & Hd); [lia|].
    exists b. split; [exact He|]. fold ks2 in Hd. rewrite Hd.
    destruct fs2 as [|f fs2']; [reflexivity|].
    destruct Hok1 as (Hp & _ & _). unfold lenZ in *.
    replace (_ <=? Z.to_nat (primary ks1))%nat with (length (f :: fs2') <=? h)%nat by lia. reflexivity.
  Qed.

  (* whatever decodes is, within its declared length, the encoding under one of
     the current keys of exactly what it decodes to *)
  Theorem decode_genuine ks b c :
    decode_cookie dec ks b = Ok c ->
    exists i k, nth_error (keys ks) i = Some k /\
      Z.of_nat i = wrap 32 (ck_id b - id_offset ks) /\
      hdr_len <= lenZ b /\ ck_len b <= lenZ (skipn (Z.to_nat hdr_len) b) /\
      dec k (ck_nonce b) [] (ck_ct b) = Some (plaintext c) /\
      ck_ct b = enc k (ck_nonce b) [] (plaintext c) /\ wf_cookie c.
  Proof using dec dec_sound dec_bytes.
    unfold decode_cookie. rewrite nth_key_nth_error by apply (proj1 (wrap32_range _)).
    destruct (lenZ b <? hdr_len) eqn:E0; [discriminate|].
    destruct (nth_error (keys ks) _) as [k|] eqn:Ek; [|discriminate].
    destruct (lenZ (skipn (Z.to_nat hdr_len) b) <? ck_len b) eqn:E1; [discriminate|].
    destruct (dec k (ck_nonce b) [] (ck_ct b)) as [p|] eqn:Ed; [|discriminate].
    intros Hp. destruct (parse_plaintext_inv p c (dec_bytes _ _ _ _ _ Ed) Hp) as [-> Hwf].
    exists (Z.to_nat (wrap 32 (ck_id b - id_offset ks))), k.
    pose proof (wrap32_range (ck_id b - id_offset ks)).
    split; [exact Ek|]. split; [lia|]. split; [lia|]. split; [lia|]. split; [exact Ed|].
    split; [apply dec_sound; exact Ed|exact Hwf].
  Qed.

  (* a byte string that differs from an issued cookie within the cookie's length, and whose
     ciphertext part is not a forgery, does not decode *)
  Theorem tamper ks c nonce b b' :
    KeysOk ks -> NoDup (keys ks) -> wf_cookie c -> lenZ nonce = 16 ->
    encode_cookie enc ks c nonce = Ok b ->
    bytes_ok (firstn 6 b') -> firstn (length b) b' <> b ->
    (forall k, nth_error (keys ks) (Z.to_nat (primary ks)) = Some k ->
       unforged dec ks [(k, nonce, enc k nonce [] (plaintext c))] b') ->
    decode_cookie dec ks b' = Err err_decrypt.
  Proof using dec dec_sound dec_bytes enc_len.
    intros Hok Hnd Hwf Hn He Hb' Hdiff Hunf.
    destruct (decode_total ks b') as [H|[c' Hd]]; [exact H|]. exfalso. apply Hdiff.
    destruct (encode_inv ks c nonce b Hok He) as (kp & Hkp & ->).
    destruct (decode_genuine ks b' c' Hd) as (i & k & Hk & Hi & Hlen & Hctl & Hdec & _).
    destruct (Hunf kp Hkp k (plaintext c') (nth_error_In _ _ Hk) Hdec) as [[= <- Hnonce Hct]|[]].
    (* same key, hence same index, hence same id *)
    assert (Hip : i = Z.to_nat (primary ks)).
    { apply (proj1 (NoDup_nth_error (keys ks)) Hnd); [apply nth_error_Some|]; congruence. }
    destruct (cookie_reassemble b' Hlen Hb') as (Rid & Rlen & Hre).
    assert (Hid : ck_id b' = wrap 32 (primary ks + id_offset ks)).
    { destruct Hok as (Hp & Ho & _). subst i. unfold wrap in *. change (2 ^ 32) with 4294967296 in *. lia. }
    (* the ciphertext is cut out by the length field, hence same length *)
    set (CT := enc kp nonce [] (plaintext c)) in *.
    assert (Hl : ck_len b' = lenZ CT).
    { rewrite Hct. unfold ck_ct, lenZ in *. rewrite firstn_length. lia. }
    pose proof (ct_len c kp nonce Hwf) as HCT. fold CT in HCT.
    rewrite !app_length, !be_enc_length.
    replace (4 + (2 + (length nonce + length CT)))%nat with (22 + Z.to_nat (ck_len b'))%nat
      by (unfold lenZ in *; lia).
    rewrite Hre, Hid, Hl, <- Hnonce, <- Hct, (wrap_small 16) by (change (2 ^ 16) with 65536; lia).
    reflexivity.
  Qed.

  (* cookies made under a key that is not in the set do not decode *)
  Theorem foreign ks ksf c nonce b :
    KeysOk ksf -> wf_cookie c -> lenZ nonce = 16 ->
    encode_cookie enc ksf c nonce = Ok b ->
    Forall bytes_ok (keys ks) -> Forall bytes_ok (keys ksf) ->
    (forall k, nth_error (keys ksf) (Z.to_nat (primary ksf)) = Some k -> ~ In k (keys ks)) ->
    decode_cookie dec ks b = Err err_decrypt.
  Proof using dec enc_len key_sep.
    intros Hok Hwf Hn He Hbk Hbkf Hnot.
    destruct (decode_issued ksf ks c nonce b Hok Hwf Hn He) as (kf & Hkf & ->).
    destruct (nth_error (keys ks) _) as [k'|] eqn:Ek; [|reflexivity].
    destruct (dec k' nonce [] (enc kf nonce [] (plaintext c))) as [p|] eqn:Ed; [|reflexivity].
    exfalso. apply key_sep in Ed.
    2: { rewrite Forall_forall in Hbkf. apply Hbkf. eapply nth_error_In. exact Hkf. }
    2: { rewrite Forall_forall in Hbk. apply Hbk. eapply nth_error_In. exact Ek. }
    subst k'. apply (Hnot kf Hkf). eapply nth_error_In. exact Ek.
  Qed.
End AEAD.

Lemma bytes_eqb_eq a : forall b, bytes_eqb a b = true <-> a = b.
Proof.
  induction a as [|x a IH]; intros [|y b]; cbn; try (split; [discriminate|congruence]); [tauto|].
  rewrite andb_true_iff, Z.eqb_eq, IH. split; [intros [-> ->]; reflexivity|intros [= -> ->]; auto].
Qed.

Lemma all_bytes_ok p : all_bytes p = true <-> bytes_ok p.
Proof.
  unfold all_bytes, bytes_ok, is_byte. rewrite forallb_forall, Forall_forall.
  split; intros H x Hx; specialize (H x Hx); lia.
Qed.

Lemma toy_dec_enc k n a p : bytes_ok p -> toy_dec k n a (toy_enc k n a p) = Some p.
Proof.
  intros Hp. unfold toy_dec. assert (Hl : length (toy_enc k n a p) = (length p + 16)%nat).
  { unfold toy_enc. rewrite app_length. reflexivity. }
  rewrite Hl. replace (length p + 16 - 16)%nat with (length p) by lia.
  assert (Hf : firstn (length p) (toy_enc k n a p) = p) by (apply firstn_app_len; reflexivity).
  rewrite Hf. replace (16 <=? length p + 16)%nat with true by lia.
  rewrite (proj2 (bytes_eqb_eq _ _) eq_refl), (proj2 (all_bytes_ok p) Hp). reflexivity.
Qed.

Lemma toy_dec_inv k n a c p : toy_dec k n a c = Some p -> c = toy_enc k n a p /\ bytes_ok p.
Proof.
  unfold toy_dec. destruct (_ && _ && _) eqn:E; [|discriminate]. intros [= <-].
  apply andb_true_iff in E. destruct E as [E E3]. apply andb_true_iff in E. destruct E as [E1 E2].
  split; [apply bytes_eqb_eq; exact E2|apply all_bytes_ok; exact E3].
Qed.
