(* Model/Stratum.v (C33): the own-address test of accept_synchronization as a proposition
   ([loop_test]), the union of the used sources' Bloom filters ([fold_bf_add_spec]) and the
   inversion of one step of resolve ([resolve_cons_inv]). *)
From V Require Import Model.Bloom Model.Stratum Proofs.Common Proofs.Bloom.
From V Require Import Gen.ConstSource.

(* call sites of accept_synchronization: handle_timer, process_message (+1 unit test) *)
Lemma accept_site_census : N_ACCEPT_SYNC_CALLS = 3.
Proof. reflexivity. Qed.

Lemma is_local_In : forall ids id, is_local ids id = true <-> In id ids.
Proof.
  intros ids id. apply (existsb_eqb_In (fun a x => x =? a)).
  intros x y. rewrite Z.eqb_eq. split; auto.
Qed.

(* the own-address test of accept_synchronization *)
Lemma loop_test : forall ids s,
  negb (s_stratum s =? 1) &&
    existsb (fun l => (l =? s_source_id s) || (l =? s_reference_id s)) ids = true <->
  s_stratum s <> 1 /\ (In (s_source_id s) ids \/ In (s_reference_id s) ids).
Proof.
  intros ids s. rewrite andb_true_iff, negb_true_iff, Z.eqb_neq, existsb_exists.
  apply and_iff_compat_l. split.
  - intros (l & Hl & E). apply orb_true_iff in E. destruct E as [E|E]; apply Z.eqb_eq in E; subst; auto.
  - intros [H|H]; eexists; (split; [exact H|]); rewrite Z.eqb_refl; auto using orb_true_r.
Qed.

(* the union of the used sources' filters keeps every member of the start filter and of each of them *)
Lemma fold_bf_add_spec : forall fs f, length f = NBYTES -> Forall (fun g => length g = NBYTES) fs ->
  length (fold_left bf_add fs f) = NBYTES /\
  forall id, id_ok id ->
    (contains_id f id = Ok true -> contains_id (fold_left bf_add fs f) id = Ok true) /\
    (forall g, In g fs -> contains_id g id = Ok true -> contains_id (fold_left bf_add fs f) id = Ok true).
Proof.
  induction fs as [|a fs IH]; intros f Hf Hfs; cbn [fold_left].
  - split; [exact Hf|]. intros id Hid. split; [auto|intros g []].
  - inversion Hfs as [|? ? Ha Hfs']; subst.
    destruct (IH (bf_add f a)) as [L K]; [rewrite length_bf_add; exact Hf|exact Hfs'|].
    split; [exact L|]. intros id Hid. destruct (K id Hid) as [Kf Kg].
    destruct (bf_add_contains f a id Hf Ha Hid) as (_ & K1 & K2).
    split; [auto|]. intros g [<-|Hin]; eauto.
Qed.

Lemma resolve_cons_inv : forall table id ty r l, resolve table ((id, ty) :: r) = Some l ->
  exists x l', l = x :: l' /\ resolve table r = Some l' /\
    match ty with
    | TPps => x = SExternal 0 REFID_PPS
    | TSock => x = SExternal 0 REFID_SOCK
    | TCsptp => x = SExternal 0 REFID_CSPTP
    | TNtp => lookup table id = Some x
    end.
Proof.
  intros table id ty r l H. cbn [resolve] in H.
  destruct ty; try destruct (lookup table id); try discriminate;
    (destruct (resolve table r); [|discriminate]); injection H as <-; eauto.
Qed.

Lemma resolve_some_iff : forall table used,
  (exists l, resolve table used = Some l) <-> all_reported table used.
Proof.
  intros table used. unfold all_reported. induction used as [|[id ty] r IH].
  { split; [intros _ id []|cbn; eauto]. }
  split.
  - intros [l H]. apply resolve_cons_inv in H as (x & l' & _ & Hr & D).
    intros id0 [[= -> ->]|Hin]; [rewrite D; discriminate|]. apply IH; eauto.
  - intros H. destruct (proj2 IH) as [l' Hl']; [intros id0 Hin; apply H; right; exact Hin|].
    cbn [resolve]. rewrite Hl'. destruct ty; cbn [option_map]; eauto.
    destruct (lookup table id) eqn:E; [cbn; eauto|]. exfalso. apply (H id); [left; reflexivity|exact E].
Qed.

Lemma resolve_shape : forall table used l, resolve table used = Some l ->
  length l = length used /\
  (forall x, In x l -> (exists st id, x = SExternal st id) \/ (exists k, lookup table k = Some x)).
Proof.
  intros table used. induction used as [|[id ty] r IH]; intros l H.
  - injection H as <-. split; [reflexivity|intros x []].
  - apply resolve_cons_inv in H as (x & l' & -> & Hr & D). destruct (IH l' Hr) as [I1 I2].
    split; [cbn; lia|]. intros y [<-|Hy]; [|auto]. destruct ty; subst; eauto.
Qed.
