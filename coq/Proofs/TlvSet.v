(* Lemmas on TLV-set scanning and iteration (model PtpWire.v), shared by C41, C44, C45. *)
From V Require Import Model.PtpWire Proofs.Common Proofs.WireBytes.

Lemma tlv_scan_total_len : forall f buf t n,
  tlv_scan f buf t = Ok n -> n = (t + length buf)%nat.
Proof.
  induction f; intros buf t n H; cbn [tlv_scan] in H; [discriminate|].
  destruct (4 <=? length buf)%nat eqn:E4.
  - destruct (Z.odd _); [discriminate|].
    destruct (length buf <? 4 + Z.to_nat _)%nat eqn:El; [discriminate|].
    apply IHf in H. rewrite skipn_length in H. lia.
  - destruct (length buf =? 0)%nat eqn:E0; [|discriminate]. apply Ok_inj in H. lia.
Qed.

(* a validated set: scanning succeeds *)
Definition tlv_valid (set : bytes) : Prop := exists n, tlv_scan (S (length set)) set 0 = Ok n.

(* TlvSet::deserialize accepts exactly the valid sets, whole *)
Lemma tlvset_de_ok_iff : forall buf s, tlvset_de buf = Ok s <-> s = buf /\ tlv_valid buf.
Proof.
  unfold tlvset_de, tlv_valid. intros buf s. split.
  - intros H. apply bind_ok in H. destruct H as (n & E & H). apply Ok_inj in H. subst s.
    rewrite (tlv_scan_total_len _ _ _ _ E). cbn [Nat.add]. rewrite firstn_all. eauto.
  - intros [-> [n E]]. rewrite E. rewrite (tlv_scan_total_len _ _ _ _ E). cbn [res_bind Nat.add].
    rewrite firstn_all. reflexivity.
Qed.

Lemma tlvset_de_np : forall buf, np (tlvset_de buf).
Proof.
  assert (forall f b t, np (tlv_scan f b t)) as N.
  { induction f; intros b t; cbn [tlv_scan]; [apply np_err|].
    destruct (4 <=? length b)%nat.
    - destruct (Z.odd _); [apply np_err|]. destruct (_ <? _)%nat; [apply np_err|apply IHf].
    - destruct (_ =? _)%nat; [apply np_ok|apply np_err]. }
  intros buf. apply np_bind; [apply N|intros; apply np_ok].
Qed.

Lemma tlv_scan_iter : forall f buf t n,
  tlv_scan f buf t = Ok n -> exists l, tlv_iter f buf = Ok l.
Proof.
  induction f; intros buf t n H; cbn [tlv_scan] in H; [discriminate|]. cbn [tlv_iter]. cbv zeta.
  destruct (4 <=? length buf)%nat eqn:E4.
  - destruct (Z.odd _); [discriminate|].
    destruct (length buf <? 4 + Z.to_nat _)%nat eqn:El; [discriminate|].
    replace (length buf <? 4)%nat with false by lia.
    destruct (IHf _ _ _ H) as [l Hl]. rewrite Hl. cbn. eauto.
  - replace (length buf <? 4)%nat with true by lia. eauto.
Qed.

(* iterating a validated set never reaches the unwrap *)
Lemma tlvs_valid_ok : forall set, tlv_valid set -> exists l, tlvs set = Ok l.
Proof. intros set [n H]. unfold tlvs. eapply tlv_scan_iter; eauto. Qed.

Lemma tlvs_np : forall set, tlv_valid set -> np (tlvs set).
Proof. intros set V. destruct (tlvs_valid_ok set V) as [l ->]. apply np_ok. Qed.

Definition tlv_wf (t : tlv) : Prop := 0 <= fst t < 65536 /\ Z.of_nat (length (snd t)) <= 65535.
Definition tlv_concat (ts : list tlv) : bytes := concat (map tlv_ser ts).

Lemma tlv_ser_length : forall t, length (tlv_ser t) = (4 + length (snd t))%nat.
Proof. intros [ty v]. unfold tlv_ser. rewrite !app_length. cbn. reflexivity. Qed.

Lemma tlv_ser_head : forall t rest, tlv_wf t ->
  let buf := tlv_ser t ++ rest in
  unbe [byte 0 buf; byte 1 buf] = fst t
  /\ unbe [byte 2 buf; byte 3 buf] = Z.of_nat (length (snd t))
  /\ skipn (4 + length (snd t)) buf = rest
  /\ slice 4 (4 + length (snd t)) buf = snd t.
Proof.
  intros [ty v] rest [Hty Hlen]. cbn [fst snd] in *. cbv zeta. unfold tlv_ser. cbn [fst snd].
  repeat split.
  - exact (unbe_be_small 2 ty Hty).
  - apply (unbe_be_small 2). lia.
  - rewrite !app_assoc. apply skipn_app_len. rewrite !app_length, !be_length. reflexivity.
  - apply (slice_mid (be 2 ty ++ be 2 (Z.of_nat (length v))) v rest); [reflexivity|lia].
Qed.

Lemma tlv_iter_cons : forall f t rest, tlv_wf t ->
  tlv_iter (S f) (tlv_ser t ++ rest) = (do r <- tlv_iter f rest; Ok (t :: r)).
Proof.
  intros f t rest W. destruct (tlv_ser_head t rest W) as (A & B & C & D).
  cbn [tlv_iter]. cbv zeta. rewrite A, B, Nat2Z.id, C, D, app_length, tlv_ser_length.
  replace (4 + length (snd t) + length rest <? 4)%nat with false by lia.
  replace (4 + length (snd t) + length rest <? 4 + length (snd t))%nat with false by lia.
  destruct t; reflexivity.
Qed.

Lemma tlv_iter_concat : forall ts f, Forall tlv_wf ts -> (length ts < f)%nat ->
  tlv_iter f (tlv_concat ts) = Ok ts.
Proof.
  induction ts as [|t r IH]; intros f W L.
  - destruct f; [lia|]. reflexivity.
  - destruct f; [cbn in L; lia|]. inversion W; subst.
    unfold tlv_concat. cbn [map concat]. rewrite tlv_iter_cons by assumption.
    fold (tlv_concat r). rewrite IH; auto. cbn in L. lia.
Qed.

Lemma tlv_concat_length : forall ts, (4 * length ts <= length (tlv_concat ts))%nat.
Proof.
  induction ts as [|t r IH]; [cbn; lia|]. unfold tlv_concat in *. cbn [map concat length].
  rewrite app_length, tlv_ser_length. lia.
Qed.

Lemma tlvs_concat : forall ts, Forall tlv_wf ts -> tlvs (tlv_concat ts) = Ok ts.
Proof.
  intros ts W. unfold tlvs. apply tlv_iter_concat; auto.
  pose proof (tlv_concat_length ts). lia.
Qed.

Definition tlv_even (t : tlv) : Prop := Nat.odd (length (snd t)) = false.

Lemma tlv_scan_cons : forall f t rest tot, tlv_wf t -> tlv_even t ->
  tlv_scan (S f) (tlv_ser t ++ rest) tot = tlv_scan f rest (tot + 4 + length (snd t)).
Proof.
  intros f t rest tot W Ev. destruct (tlv_ser_head t rest W) as (_ & B & C & _).
  cbn [tlv_scan]. cbv zeta. rewrite B, Nat2Z.id, odd_of_nat, Ev, C, app_length, tlv_ser_length.
  replace (4 <=? 4 + length (snd t) + length rest)%nat with true by lia.
  replace (4 + length (snd t) + length rest <? 4 + length (snd t))%nat with false by lia.
  reflexivity.
Qed.

Lemma tlv_scan_concat : forall ts f tot, Forall tlv_wf ts -> Forall tlv_even ts -> (length ts < f)%nat ->
  tlv_scan f (tlv_concat ts) tot = Ok (tot + length (tlv_concat ts))%nat.
Proof.
  induction ts as [|t r IH]; intros f tot W Ev L.
  - destruct f; [lia|]. cbn. f_equal. lia.
  - destruct f; [cbn in L; lia|]. inversion W; inversion Ev; subst.
    unfold tlv_concat. cbn [map concat]. rewrite tlv_scan_cons by assumption.
    fold (tlv_concat r). rewrite IH; auto; [|cbn in L; lia].
    f_equal. rewrite app_length, tlv_ser_length. lia.
Qed.

Lemma tlv_concat_valid : forall ts, Forall tlv_wf ts -> Forall tlv_even ts -> tlv_valid (tlv_concat ts).
Proof.
  intros ts W Ev. exists (0 + length (tlv_concat ts))%nat. apply tlv_scan_concat; auto.
  pose proof (tlv_concat_length ts). lia.
Qed.

Lemma tlvset_de_concat : forall ts, Forall tlv_wf ts -> Forall tlv_even ts -> tlvset_de (tlv_concat ts) = Ok (tlv_concat ts).
Proof. intros ts W Ev. apply tlvset_de_ok_iff. auto using tlv_concat_valid. Qed.

Lemma builder_add_inv : forall cap used t u,
  builder_add cap used t = Ok u ->
  u = used ++ tlv_ser t /\ tlv_even t /\ Z.of_nat (length (snd t)) <= 65535 /\ (length u <= cap)%nat.
Proof.
  intros cap used t u H. unfold builder_add in H. cbv zeta in H.
  destruct (Nat.odd _) eqn:Eo; [discriminate|].
  destruct (65535 <? _) eqn:El; [discriminate|].
  destruct (_ <? _)%nat eqn:Ec; [discriminate|]. inversion H; subst.
  repeat split; auto; try lia.
  rewrite app_length, tlv_ser_length. lia.
Qed.

Lemma builder_add_all_inv : forall ts cap used u,
  builder_add_all cap used ts = Ok u ->
  u = used ++ tlv_concat ts /\ Forall tlv_even ts /\ Forall (fun t => Z.of_nat (length (snd t)) <= 65535) ts /\ (length used <= cap -> length u <= cap)%nat.
Proof.
  induction ts as [|t r IH]; intros cap used u H; cbn in H.
  - inversion H; subst. unfold tlv_concat. cbn. rewrite app_nil_r. auto.
  - destruct (builder_add cap used t) as [u1| |] eqn:E1; cbn in H; try discriminate.
    apply builder_add_inv in E1. destruct E1 as (-> & Ev & Hl & Hc).
    apply IH in H. destruct H as (-> & Evs & Hls & Hcs).
    unfold tlv_concat. cbn [map concat]. rewrite app_assoc. repeat split; auto.
Qed.
