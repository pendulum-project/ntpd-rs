(* C22, answer construction: the panic sites that Model/Response.v (the model of the response
   builders and of NtpPacket::serialize over PARSED requests) makes explicit are never reached.
     Panic 1  assert_eq!(payload_len % 4, 0)        ReferenceIdRequest::serialize
     Panic 2  self.bytes.len().try_into().unwrap()   ReferenceIdResponse::serialize
     Panic 3  unreachable!("NTS shouldn't work with NTPv3")   nts_timestamp_response
     Panic 4  the same in nts_nak_response
     Panic 5  the same in nts_deny_response / nts_rate_limit_response
   Model/Response.v models the sizes and contents of answers; it has no other panic sites (the
   slice arithmetic of encode_encrypted, the cipher, the cursor are not modelled as panic-capable there). *)
From V Require Import Model.Response Proofs.Common Proofs.Response Proofs.ResponseFit Gen.ConstResponse.

(* a field whose encoder cannot hit its assertion *)
Definition safe_field (f : field) : Prop :=
  match f with
  | FRefReq _ _ => False
  | FRefResp d => len d <= 65535
  | _ => True
  end.

Lemma enc_generic_np ty data min v5 : np (enc_generic ty data min v5).
Proof.
  unfold enc_generic, enc_framing, enc_padding.
  destruct (len data >? 65535 - EF_HEADER_LENGTH); cbn [res_bind]; [apply np_err|apply np_ok].
Qed.

Lemma encode_field_np v5 min f : safe_field f -> np (encode_field v5 min f).
Proof.
  destruct f; cbn [encode_field safe_field]; intros Hs; try apply enc_generic_np; try apply np_err; try contradiction.
  - unfold enc_framing, enc_padding.
    destruct (wrap 64 (n - EF_HEADER_LENGTH) >? 65535 - EF_HEADER_LENGTH); cbn [res_bind]; [apply np_err|apply np_ok].
  - destruct (len d >? 65535) eqn:E; [lia|apply np_ok].
Qed.

Lemma encode_fields_np v5 minf fs : Forall safe_field fs -> np (encode_fields v5 minf fs).
Proof.
  induction 1 as [|f r Hf Hr IH]; cbn [encode_fields]; [apply np_ok|].
  apply np_bind; [exact (encode_field_np _ _ _ Hf)|intros a _].
  apply np_bind; [exact IH|intros b _; apply np_ok].
Qed.

Lemma serialize_np a B :
  Forall safe_field (a_untrusted a) -> Forall safe_field (a_auth a) -> Forall safe_field (a_enc a) ->
  np (serialize a B).
Proof.
  intros HU HA HE. destruct (Z.eq_dec (a_ver a) 3) as [V|V].
  { rewrite (serialize_v3 a B V). destruct (len (a_header a) <=? B); [apply np_ok|apply np_err]. }
  rewrite (serialize_unpadded a B V). apply np_bind; [|intros w0 _; apply np_bind; [|intros w1 _]].
  - unfold unpadded. cbv zeta. apply np_bind.
    + destruct (negb (is_nil (a_auth a)) || negb (is_nil (a_enc a))); [|apply np_ok].
      destruct (negb (a_cipher a)); [apply np_err|].
      apply np_bind; [exact (encode_fields_np _ _ _ HA)|intros ab _].
      apply np_bind; [exact (encode_fields_np _ _ _ HE)|intros pb _; apply np_ok].
    + intros ap _. apply np_bind; [exact (encode_fields_np _ _ _ HU)|intros ub _; apply np_ok].
  - unfold padded. destruct (a_ver a =? 5); [|apply np_ok]. destruct (a_desired a) as [d|]; [|apply np_ok].
    destruct (d >? wire_len w0); [|apply np_ok].
    apply np_bind; [exact (encode_field_np _ _ (FPadding _) I)|intros p _; apply np_ok].
  - destruct (wire_len w1 <=? B); [apply np_ok|apply np_err].
Qed.

Lemma echoed_safe k st q l : len (s_filter st) <= 65535 -> Forall safe_field (echoed k st q l).
Proof.
  intros Hf. apply Forall_forall. intros f HF. apply echoed_In in HF.
  destruct HF as [((d & ->) & _)|(_ & _ & [->|(_ & p & o & _ & HR)])]; [exact I|exact I|].
  apply refid_response_spec in HR. destruct HR as (-> & _). cbn [safe_field].
  destruct (len_firstn_le (Z.to_nat p) (skipn (Z.to_nat o) (s_filter st))) as (_ & H).
  unfold len in *. rewrite skipn_length in H. lia.
Qed.

(* for every request whose NTPv3 form carries neither a cookie nor a failed authenticator (what the decoder
   guarantees: Proofs/ServerBytes.v deserialize_v3 at the byte level, wf_request at this level), every
   configuration reaching the parser (intended action Deny or ProvideTime), every server state whose
   reference-id filter is at most 65535 bytes (it is 512), every buffer: no panic site of the model is reached *)
Theorem answer_no_panic tf cfg st q recv now mlen B s :
  (q_version q = 3 \/ q_version q = 4 \/ q_version q = 5) ->
  (q_version q = 3 -> q_cookie q = None /\ q_decrypt_failed q = false) ->
  (c_intended cfg = 1 \/ c_intended cfg = 3) ->
  len (s_filter st) <= 65535 ->
  handle tf cfg st q recv now mlen B <> OPanic s.
Proof.
  intros HV H3 Hi Hf. unfold handle.
  destruct (decision cfg q) as [[[[k alg] stats]|]|stats] eqn:Ed; try discriminate.
  pose proof (decision_cases _ _ _ _ _ Hi Ed) as Hk. unfold respond.
  destruct (build_cases tf k alg st q recv now mlen HV) as [E|(E3 & K & s' & E)]; rewrite E.
  - destruct (serialize _ B) as [w|e|s''] eqn:Es; try discriminate.
    exfalso. refine (serialize_np _ B _ _ _ _ Es); cbn [a_untrusted a_auth a_enc built mk_answer].
    + destruct (is_nts_kind k); [constructor|exact (echoed_safe _ _ _ _ Hf)].
    + destruct (is_nts_kind k); [exact (echoed_safe _ _ _ _ Hf)|constructor].
    + unfold sent_cookies. destruct (is_nts_kind k && is_time_kind k); [|constructor].
      eapply Forall_impl; [|exact (proj2 (proj2 (fresh_cookies_bounds tf alg q)))]. intros f ->. exact I.
  - exfalso. destruct (H3 E3) as (Hc & Hd).
    destruct K as [K| ->]; [destruct k; try discriminate K|]; cbn in Hk; intuition congruence.
Qed.

(* the request-level guarantee is part of the predicate the correspondence of C16-C19 checks on every decoded request *)
Corollary answer_no_panic_wf tf cfg st q recv now mlen B s :
  wf_request q = true -> (c_intended cfg = 1 \/ c_intended cfg = 3) -> len (s_filter st) <= 65535 ->
  handle tf cfg st q recv now mlen B <> OPanic s.
Proof.
  intros Hw. destruct (wf_request_facts q Hw) as (HV & _ & _ & _ & _ & _ & _ & _ & H3 & _).
  apply answer_no_panic; [exact HV|]. intros V3. destruct (H3 V3) as (_ & _ & _ & HF & HC). auto.
Qed.
