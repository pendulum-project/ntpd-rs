(* C44: the poll loop always returns, and a raw measurement is made only of traffic that matches
   the request ([justified]), one per poll at most. *)
From V Require Import Model.CsptpSource Proofs.Common Proofs.TlvSet Proofs.PtpWireMsg Proofs.CsptpMsg.
From V Require Import Gen.ConstCsptp.

(* panic-site census of source.rs as modelled (Model/CsptpSource.v): the three sites are the
   try_into().expect in add_correction (dead: rem_euclid result fits u32) and the two expects
   on the request (request_datagram_ok) *)
Example census_source : PANIC_SITES_SOURCE = 3.
Proof. reflexivity. Qed.

(* [ev] is a timestamped datagram that parses as a CSPTP Sync with the request's domain and
   sequence id and carries a valid response TLV *)
Definition matching_response (domain reqid : Z) (ev : event) (m : message) (origin : timestamp)
           (rt : resp_tlv) (rts : timestamp) (ts : list tlv) : Prop :=
  exists pkt, ev = Datagram pkt (Some rts) /\ csptp_deserialize pkt = Ok m
    /\ h_domain (m_header m) = domain /\ h_seq (m_header m) = reqid
    /\ m_body m = Sync origin /\ tlvs (m_suffix m) = Ok ts /\ find_map resp_tlv_try ts = Some rt.
Definition matching_follow_up (domain reqid : Z) (ev : event) (m : message) (precise : timestamp) : Prop :=
  exists pkt rts, ev = Datagram pkt rts /\ csptp_deserialize pkt = Ok m
    /\ h_domain (m_header m) = domain /\ h_seq (m_header m) = reqid /\ m_body m = FollowUp precise.

(* what a raw measurement must be made of *)
Definition justified (domain reqid : Z) (send_ts : timestamp) (all : list event) (r : raw_measurement) : Prop :=
  exists ev m origin rt rts ts,
    In ev all /\ matching_response domain reqid ev m origin rt rts ts
    /\ rm_req_send r = send_ts /\ rm_req_recv r = rt_ingress rt /\ rm_req_corr r = rt_correction rt
    /\ rm_resp_recv r = rts /\ rm_leap r = leap_of (m_header m) /\ rm_status r = find_map status_tlv_try ts
    /\ rm_ptp r = h_ptp_timescale (m_header m) /\ rm_tt r = h_time_traceable (m_header m)
    /\ rm_ft r = h_freq_traceable (m_header m)
    /\ if h_two_step (m_header m)
       then exists ev' m' precise,
              In ev' all /\ matching_follow_up domain reqid ev' m' precise
              /\ rm_resp_send r = precise
              /\ rm_resp_corr r = sat_i64 (h_correction (m_header m) + h_correction (m_header m'))
       else rm_resp_send r = origin /\ rm_resp_corr r = h_correction (m_header m).

(* what a waiting state has stored was taken from matching events of [all] *)
Definition state_justified (domain reqid : Z) (all : list event) (st : rstate) : Prop :=
  match st with
  | WaitingForResponse => True
  | WaitingForFollowUp s =>
      exists ev m origin rt rts ts,
        In ev all /\ matching_response domain reqid ev m origin rt rts ts
        /\ h_two_step (m_header m) = true
        /\ s = mkSyncInfo (rt_ingress rt) rts (rt_correction rt) (h_correction (m_header m)) (leap_of (m_header m))
                          (find_map status_tlv_try ts) (h_ptp_timescale (m_header m))
                          (h_time_traceable (m_header m)) (h_freq_traceable (m_header m))
  | WaitingForResponseHaveFollowUp precise c =>
      exists ev' m', In ev' all /\ matching_follow_up domain reqid ev' m' precise /\ c = h_correction (m_header m')
  end.

Lemma step_sound : forall domain reqid send_ts all st ev res,
  In ev all -> state_justified domain reqid all st ->
  step domain reqid send_ts st ev = Ok res ->
  match res with
  | Continue st' => state_justified domain reqid all st'
  | Done r => justified domain reqid send_ts all r
  end.
Proof.
  intros domain reqid send_ts all st ev res Hin Hinv H.
  (* an event that is ignored leaves the state, and the invariant, as they were *)
  assert (Ok (Continue st) = Ok res -> match res with Continue st' => state_justified domain reqid all st'
                                        | Done r => justified domain reqid send_ts all r end) as Ign
    by (intros E; apply Ok_inj in E; subst res; exact Hinv).
  unfold step in H. destruct ev as [|pkt rts]; [exact (Ign H)|].
  destruct (csptp_deserialize pkt) as [m|e|s] eqn:Ed; [|exact (Ign H)|discriminate].
  cbv zeta in H.
  destruct (h_domain (m_header m) =? domain) eqn:E1; cbn [negb orb] in H; [|exact (Ign H)].
  destruct (h_seq (m_header m) =? reqid) eqn:E2; cbn [negb orb] in H; [|exact (Ign H)].
  apply Z.eqb_eq in E1, E2.
  destruct (m_body m) as [origin| | | |precise| | | | | ] eqn:Eb; try exact (Ign H).
  - (* Sync *)
    destruct (tlvs (m_suffix m)) as [ts|e|s] eqn:Et; cbn in H; try discriminate.
    destruct (find_map resp_tlv_try ts) as [rt|] eqn:Ef; [|exact (Ign H)].
    destruct rts as [recv_ts|]; [|exact (Ign H)].
    assert (matching_response domain reqid (Datagram pkt (Some recv_ts)) m origin rt recv_ts ts) as MR.
    { exists pkt. repeat split; auto. }
    destruct (h_two_step (m_header m)) eqn:E2s.
    + destruct st as [|s|rs rc]; inversion H; subst; clear H.
      * cbn. do 6 eexists. split; [exact Hin|]. split; [exact MR|]. auto.
      * exact Hinv.
      * cbn in Hinv. destruct Hinv as (ev' & m' & Hin' & MF & ->).
        do 6 eexists. split; [exact Hin|]. split; [exact MR|]. cbn. repeat split; auto. rewrite E2s.
        exists ev', m', rs. repeat split; auto. f_equal. apply Z.add_comm.
    + inversion H; subst; clear H.
      do 6 eexists. split; [exact Hin|]. split; [exact MR|]. cbn. repeat split; auto. rewrite E2s. split; reflexivity.
  - (* FollowUp *)
    assert (matching_follow_up domain reqid (Datagram pkt rts) m precise) as MF.
    { exists pkt, rts. repeat split; auto. }
    destruct st as [|s|rs rc]; inversion H; subst; clear H.
    + cbn. exists (Datagram pkt rts), m. repeat split; auto.
    + cbn in Hinv. destruct Hinv as (ev0 & m0 & origin & rt & rts0 & ts & Hin0 & MR & E2s & ->).
      exists ev0, m0, origin, rt, rts0, ts. cbn. repeat split; auto. rewrite E2s.
      exists (Datagram pkt rts), m, precise. repeat split; auto.
    + exact Hinv.
Qed.

Lemma collect_sound : forall domain reqid send_ts all events st r,
  incl events all -> state_justified domain reqid all st ->
  collect domain reqid send_ts st events = Ok (Some r) ->
  justified domain reqid send_ts all r.
Proof.
  induction events as [|ev rest IH]; intros st r Hincl Hinv H; cbn in H; [discriminate|].
  destruct (step domain reqid send_ts st ev) as [res|e|s] eqn:Es; cbn in H; try discriminate.
  assert (In ev all) as Hin by (apply Hincl; left; reflexivity).
  pose proof (step_sound _ _ _ _ _ _ _ Hin Hinv Es) as S.
  destruct res as [st'|m].
  - eapply IH; eauto. intros x Hx. apply Hincl. right. exact Hx.
  - inversion H; subst. exact S.
Qed.

Lemma step_ok : forall domain reqid send_ts st ev, exists r, step domain reqid send_ts st ev = Ok r.
Proof.
  intros domain reqid send_ts st ev. unfold step. destruct ev as [|pkt rts]; [eauto|].
  destruct (csptp_deserialize pkt) as [m|e|s] eqn:Ed; [|eauto|destruct (csptp_deserialize_np _ _ Ed)].
  apply csptp_deserialize_inv in Ed. destruct Ed as (_ & V & _). destruct (tlvs_valid_ok _ V) as [l Hl].
  cbv zeta. destruct (_ || _); [eauto|]. destruct (m_body m); eauto.
  - rewrite Hl. cbn [res_bind]. destruct (find_map _ l); [|eauto].
    destruct rts; [|eauto]. destruct (h_two_step _); [|eauto]. destruct st; eauto.
  - destruct st; eauto.
Qed.

Lemma collect_ok : forall domain reqid send_ts events st, exists o, collect domain reqid send_ts st events = Ok o.
Proof.
  induction events as [|ev rest IH]; intros st; cbn; [eauto|].
  destruct (step_ok domain reqid send_ts st ev) as [r ->]. cbn. destruct r; [apply IH|eauto].
Qed.

Lemma collect_no_panic : forall domain reqid send_ts events st s,
  collect domain reqid send_ts st events <> Panic s.
Proof. intros. destruct (collect_ok domain reqid send_ts events st) as [o ->]. discriminate. Qed.

(* the request always fits its buffers: the two expects of the poll loop cannot fire *)
Lemma request_datagram_ok : forall domain reqid, exists d, request_datagram domain reqid = Ok d.
Proof.
  intros. unfold request_datagram, new_request.
  change (build_tlvs _ _) with (Ok (tlv_ser (req_tlv_make true false))). cbn [res_bind].
  apply msg_serialize_fits; [rewrite repeat_length; cbn; lia|cbn; lia|reflexivity|reflexivity].
Qed.

Lemma poll_once_ok : forall domain active cs reqid p, exists o, poll_once domain active cs reqid p = Ok o.
Proof.
  intros. unfold poll_once. destruct (request_datagram_ok domain reqid) as [d ->].
  destruct (ps_send p) as [send_ts|]; [|eauto].
  destruct (collect_ok domain reqid send_ts (ps_events p) WaitingForResponse) as [o ->]. cbn.
  destruct o as [m|]; [|eauto].
  destruct (add_correction _ _); [destruct (add_correction _ _)|]; eauto.
Qed.

Theorem run_polls_ok : forall polls domain active cs seq, exists outs, run_polls domain active cs seq polls = Ok outs.
Proof.
  induction polls as [|p rest IH]; intros; cbn; [eauto|].
  destruct (poll_once_ok domain active cs seq p) as [o ->]. cbn.
  destruct (IH domain active (po_state o) (wrap 16 (seq + 1))) as [os ->]. cbn. eauto.
Qed.

Theorem run_polls_total : forall polls domain active cs seq s, run_polls domain active cs seq polls <> Panic s.
Proof. intros. destruct (run_polls_ok polls domain active cs seq) as [o ->]. discriminate. Qed.

(* the outcome of the k-th scripted poll is computed from that poll's script and sequence id alone *)
Definition outcome_of (domain : Z) (reqid : Z) (p : poll_script) (o : poll_outcome) : Prop :=
  match po_meas o with
  | None => True
  | Some nm =>
      exists send_ts r a b,
        ps_send p = Some send_ts
        /\ collect domain reqid send_ts WaitingForResponse (ps_events p) = Ok (Some r)
        /\ po_raw o = Some r
        /\ add_correction (rm_req_send r) (rm_req_corr r) = Some a
        /\ add_correction (rm_resp_send r) (rm_resp_corr r) = Some b
        /\ nm = mkNtpMeas (convert_to_ntp a, convert_to_ntp (rm_req_recv r))
                          (convert_to_ntp b, convert_to_ntp (rm_resp_recv r)) (rm_leap r)
  end.

Lemma poll_once_outcome : forall domain active cs reqid p o,
  poll_once domain active cs reqid p = Ok o -> outcome_of domain reqid p o.
Proof.
  intros domain active cs reqid p o H. unfold poll_once in H.
  destruct (request_datagram domain reqid); try discriminate.
  destruct (ps_send p) as [send_ts|] eqn:Es; [|inversion H; subst; exact I].
  destruct (collect domain reqid send_ts WaitingForResponse (ps_events p)) as [r| |] eqn:Ec; cbn in H; try discriminate.
  destruct r as [m|]; [|inversion H; subst; exact I].
  destruct (add_correction (rm_req_send m) (rm_req_corr m)) as [ta|] eqn:Ea;
    [destruct (add_correction (rm_resp_send m) (rm_resp_corr m)) as [tb|] eqn:Eb|];
    inversion H; subst; try exact I.
  unfold outcome_of. cbn. exists send_ts, m, ta, tb. repeat split; auto.
Qed.

Fixpoint seq_after (seq : Z) (k : nat) : Z :=
  match k with O => seq | S k' => seq_after (wrap 16 (seq + 1)) k' end.
