(* Proofs for C24: what the decoder accepts without keys can be encoded again. *)
From V Require Import Model.Packet Proofs.Common Proofs.Bytes Proofs.Packet.
From V Require Import Gen.ConstPacket.

Lemma be_app1 : forall b x, be (b ++ [x]) = be b * 256 + x.
Proof. intros; unfold be; rewrite fold_left_app; reflexivity. Qed.

Lemma blen_to_be : forall n v, blen (to_be n v) = Z.of_nat n.
Proof.
  induction n as [|n IH]; intros v; cbn [to_be]; [reflexivity|].
  rewrite blen_app, IH. change (blen [v mod 256]) with 1. lia.
Qed.

Lemma wf_to_be : forall n v, wf_bytes (to_be n v).
Proof.
  induction n as [|n IH]; intros v; cbn [to_be]; [constructor|].
  apply wf_app; [apply IH|]. constructor; [unfold is_byte; lia|constructor].
Qed.

Lemma be_to_be : forall n v, 0 <= v < 256 ^ Z.of_nat n -> be (to_be n v) = v.
Proof.
  induction n as [|n IH]; intros v H.
  - change (256 ^ Z.of_nat 0) with 1 in H. cbn. lia.
  - cbn [to_be]. rewrite be_app1, IH; [lia|].
    rewrite Nat2Z.inj_succ, Z.pow_succ_r in H by lia. lia.
Qed.

Lemma be_bound : forall s, wf_bytes s -> 0 <= be s < 256 ^ blen s.
Proof.
  induction s as [|x s IH] using rev_ind; intros H.
  - cbn. lia.
  - apply wf_app_inv in H. destruct H as [Hs Hx]. apply wf_cons_inv in Hx. destruct Hx as [Hx _].
    rewrite be_app1, blen_app. change (blen [x]) with 1.
    rewrite Z.pow_add_r by (pose proof (blen_nonneg s); lia). specialize (IH Hs). lia.
Qed.

Lemma to_be_be : forall s, wf_bytes s -> to_be (List.length s) (be s) = s.
Proof.
  induction s as [|x s IH] using rev_ind; intros H; [reflexivity|].
  apply wf_app_inv in H. destruct H as [Hs Hx]. apply wf_cons_inv in Hx. destruct Hx as [Hx _].
  rewrite app_length, Nat.add_1_r. cbn [to_be]. rewrite be_app1.
  replace ((be s * 256 + x) / 256) with (be s) by lia.
  replace ((be s * 256 + x) mod 256) with x by lia.
  rewrite IH by assumption. reflexivity.
Qed.

Lemma wr_app : forall w a b, (do w' <- wr w a; wr w' b) = wr w (a ++ b).
Proof.
  intros w a b. unfold wr. rewrite blen_app.
  pose proof (blen_nonneg a). pose proof (blen_nonneg b).
  destruct (blen (w_out w) + blen a >? w_cap w) eqn:E1; cbn [res_bind].
  - replace (blen (w_out w) + (blen a + blen b) >? w_cap w) with true by lia. reflexivity.
  - cbn [w_out w_cap]. rewrite blen_app.
    destruct (blen (w_out w) + blen a + blen b >? w_cap w) eqn:E2.
    + replace (blen (w_out w) + (blen a + blen b) >? w_cap w) with true by lia. reflexivity.
    + replace (blen (w_out w) + (blen a + blen b) >? w_cap w) with false by lia.
      rewrite app_assoc. reflexivity.
Qed.

Lemma wr_app_k : forall A w a b (k : writer -> res A),
  (do w' <- wr w a; do w'' <- wr w' b; k w'') = (do w'' <- wr w (a ++ b); k w'').
Proof. intros. rewrite <- wr_app. destruct (wr w a); reflexivity. Qed.

Lemma wr_ok : forall w b, blen (w_out w) + blen b <= w_cap w ->
  wr w b = Ok (mkW (w_out w ++ b) (w_cap w)).
Proof. intros w b H. unfold wr. replace (_ >? _) with false by lia. reflexivity. Qed.

Lemma wr_nil_room : forall w, blen (w_out w) <= w_cap w -> wr w [] = Ok w.
Proof.
  intros w H. rewrite wr_ok by (change (blen []) with 0; lia). rewrite app_nil_r. destruct w; reflexivity.
Qed.

Lemma wr_nil_ok : forall w w' a, wr w a = Ok w' -> wr w' [] = Ok w'.
Proof.
  intros w w' a H. apply wr_nil_room. unfold wr in H. destruct (_ >? _) eqn:E; [discriminate|].
  inversion H; subst; clear H. cbn [w_out w_cap]. rewrite blen_app. lia.
Qed.

Definition bytes_field_wire (tid : Z) (d : bytes) (minimum : Z) (v5 : bool) : bytes :=
  let a := Z.max ((blen d + EF_HEADER_LENGTH) mod 65536) minimum in
  to_be 2 tid ++ to_be 2 (if v5 then a else nm4_u16 a) ++ d
  ++ zeros (nm4 (Z.max (blen d + EF_HEADER_LENGTH) minimum) - blen d - EF_HEADER_LENGTH).

Lemma encode_bytes_field_eq : forall w tid d minimum v5, blen d <= 65531 ->
  encode_bytes_field w tid d minimum v5 = wr w (bytes_field_wire tid d minimum v5).
Proof.
  intros w tid d minimum v5 H. unfold encode_bytes_field, encode_framing, encode_padding, bytes_field_wire.
  unfold EF_HEADER_LENGTH. replace (blen d >? 65535 - 4) with false by lia.
  rewrite wr_app, wr_app_k, wr_app. rewrite <- !app_assoc. reflexivity.
Qed.

Definition tid_unknown (v5 : bool) (tid : Z) : Prop :=
  forall m, decode_field tid m v5 = Ok (EfUnknown tid m).

Definition data_ok (v5 : bool) (d : bytes) : Prop :=
  wf_bytes d /\ blen d <= 65531 /\ (v5 = false -> blen d mod 4 = 0).

Definition field_ok (v5 : bool) (f : ef) : Prop :=
  match f with
  | EfUid d | EfCookie d => data_ok v5 d
  | EfPlaceholder n => 0 <= n <= 65531 /\ (v5 = false -> n mod 4 = 0)
  | EfInvalidNts => False
  | EfDraft d => v5 = true /\ data_ok v5 d /\ all_ascii d = true
  | EfPadding _ => False
  | EfRefReq plen off => v5 = true /\ 4 <= plen <= 65531 /\ plen mod 4 = 0 /\ 0 <= off < 65536
  | EfRefResp d => v5 = true /\ data_ok v5 d
  | EfUnknown tid d => data_ok v5 d /\ 0 <= tid < 65536 /\ tid <> T_ENCRYPTED /\ tid_unknown v5 tid
  end.

Definition refreq_wire (plen off : Z) : bytes :=
  to_be 2 T_REFREQ_to ++ to_be 2 ((plen + 4) mod 65536) ++ to_be 2 off ++ [0; 0] ++ zeros (4 * (plen / 4 - 1)).

Definition refresp_wire (b : bytes) : bytes :=
  let len := (blen b + 4) mod 65536 in
  to_be 2 T_REFRESP_to ++ to_be 2 len ++ b ++ (if len mod 4 =? 0 then [] else zeros (4 - len mod 4)).

Definition field_wire (v5 : bool) (minimum : Z) (f : ef) : bytes :=
  match f with
  | EfUnknown tid d => bytes_field_wire tid d minimum v5
  | EfUid d => bytes_field_wire T_UID_to d minimum v5
  | EfCookie d => bytes_field_wire T_COOKIE_to d minimum v5
  | EfPlaceholder n => bytes_field_wire T_PLACEHOLDER_to (zeros n) minimum v5
  | EfDraft d => bytes_field_wire T_DRAFT_to d minimum v5
  | EfRefReq plen off => refreq_wire plen off
  | EfRefResp b => refresp_wire b
  | EfInvalidNts | EfPadding _ => []
  end.

Lemma ef_serialize_eq : forall v5 f w minimum, field_ok v5 f ->
  ef_serialize w f minimum v5 = wr w (field_wire v5 minimum f).
Proof.
  intros v5 f w minimum H. destruct f; cbn [field_ok] in H; cbn [ef_serialize field_wire]; try contradiction;
    try (apply encode_bytes_field_eq; unfold data_ok in H; rewrite ?blen_zeros; lia).
  - destruct H as (_ & ? & Hm & ?). unfold refreq_serialize, refreq_wire.
    replace (negb (payload_len mod 4 =? 0)) with false by lia.
    rewrite !wr_app_k, wr_app. rewrite <- !app_assoc. reflexivity.
  - destruct H as (_ & _ & ? & _). unfold refresp_serialize, refresp_wire.
    replace (blen b >? 65535) with false by lia. cbv zeta.
    destruct (_ =? 0).
    + rewrite !wr_app_k. rewrite app_nil_r.
      destruct (wr w _) as [w1|e|s]; cbn [res_bind]; reflexivity.
    + rewrite !wr_app_k, wr_app. rewrite <- !app_assoc. reflexivity.
Qed.

Fixpoint fields_wire (v5 : bool) (fs : list ef) : bytes :=
  match fs with
  | [] => []
  | f :: fs' =>
      field_wire v5 (if v5 then EF_MIN_V5 else match fs' with [] => EF_MIN_V4_LAST | _ => EF_MIN_V4 end) f
      ++ fields_wire v5 fs'
  end.

Lemma ef_serialize_untrusted_eq : forall v5 fs w, Forall (field_ok v5) fs -> fs <> [] ->
  ef_serialize_untrusted w fs v5 = wr w (fields_wire v5 fs).
Proof.
  intros v5. induction fs as [|f fs IH]; intros w H Hne; [contradiction|].
  inversion H; subst. cbn [ef_serialize_untrusted fields_wire].
  rewrite ef_serialize_eq by assumption.
  destruct fs as [|g fs].
  - cbn [ef_serialize_untrusted fields_wire]. rewrite app_nil_r.
    destruct (wr w _); reflexivity.
  - rewrite <- wr_app. destruct (wr w _) as [w1|e|s]; cbn [res_bind]; try reflexivity.
    apply IH; [assumption|discriminate].
Qed.

Lemma decode_field_ok : forall tid m v5 f, data_ok v5 m -> 0 <= tid < 65536 -> tid <> T_ENCRYPTED ->
  decode_field tid m v5 = Ok f -> field_ok v5 f.
Proof.
  intros tid m v5 f Hd Htid Hne H. pose proof Hd as (Hwf & Hlen & Hmod). unfold decode_field in H.
  destruct (tid =? T_UID) eqn:E1. { inversion H; subst. exact Hd. }
  destruct (tid =? T_COOKIE) eqn:E2. { inversion H; subst. exact Hd. }
  destruct (tid =? T_PLACEHOLDER) eqn:E3.
  { destruct (all_zero m); inversion H; subst. cbn [field_ok]. pose proof (blen_nonneg m). split; [lia|].
    intros Hv. specialize (Hmod Hv). lia. }
  destruct ((tid =? T_DRAFT) && v5) eqn:E4.
  { destruct (all_ascii m) eqn:Ea; inversion H; subst. cbn [field_ok].
    apply andb_prop in E4. destruct E4 as [_ ->]. repeat split; try assumption. }
  destruct ((tid =? T_REFREQ) && v5) eqn:E5.
  { apply andb_prop in E5. destruct E5 as [_ ->].
    apply bind_ok in H. destruct H as ([plen off] & Hr & H).
    unfold refreq_decode in Hr. destruct (blen m >? 65535); [discriminate|].
    destruct (slice m 0 2) as [ob|] eqn:Es; [|discriminate]. inversion Hr; subst; clear Hr.
    destruct (blen m mod 4 =? 0) eqn:Em; inversion H; subst. cbn [field_ok].
    pose proof (wf_slice _ _ _ _ Hwf Es) as Hwo. apply slice_some in Es. destruct Es as (_ & _ & ? & _ & Hbl).
    pose proof (be_bound ob Hwo) as Hb. rewrite Hbl in Hb. change (256 ^ (2 - 0)) with 65536 in Hb.
    repeat split; try lia. }
  destruct ((tid =? T_REFRESP) && v5) eqn:E6.
  { apply andb_prop in E6. destruct E6 as [_ ->]. inversion H; subst. cbn [field_ok]. split; [reflexivity|exact Hd]. }
  inversion H; subst. cbn [field_ok]. repeat split; try assumption; try lia.
  intros m'. unfold decode_field. rewrite E1, E2, E3, E4, E5, E6. reflexivity.
Qed.

(* the loop without keys: nothing is authenticated or encrypted, and while the packet is valid every
   field collected is one the encoder accepts *)
Definition nokeys_inv (v5 : bool) (st : lstate) : Prop :=
  authenticated (l_ef st) = [] /\ encrypted (l_ef st) = [] /\ l_cookie st = None /\
  (l_valid st = true -> Forall (field_ok v5) (untrusted (l_ef st))).

Lemma nokeys_step : forall dec data hs v5 offset st tid m s, nokeys_inv v5 st -> data_ok v5 m -> 0 <= tid < 65536 ->
  ef_step dec NoKeys data hs v5 offset st tid m = Ok s -> nokeys_inv v5 s.
Proof.
  intros dec data hs v5 offset st tid m s (Ha & He & Hc & Hf) Hd Htid H. unfold ef_step in H.
  destruct (tid =? T_ENCRYPTED) eqn:Et.
  - inv_bind H. destruct a as [nonce ct]. cbn [cipher_get res_bind] in H. inversion H; subst s.
    unfold nokeys_inv, push_invalid, set_size; cbn. repeat split; try assumption. discriminate.
  - inv_bind H. inversion H; subst s. unfold nokeys_inv, push_untrusted, set_size; cbn.
    repeat split; try assumption. intros Hv. apply Forall_app. split; [apply Hf; exact Hv|].
    constructor; [|constructor]. eapply decode_field_ok; try eassumption. lia.
Qed.

Lemma nokeys_loop : forall dec data hs v5 buf fuel st', wf_bytes buf ->
  ef_loop fuel dec NoKeys data hs v5 buf 0 st_init = Ok st' ->
  nokeys_inv v5 st' /\ 0 <= l_size st' <= blen buf /\ blen buf - l_size st' <= ef_cutoff v5.
Proof.
  intros dec data hs v5 buf fuel st' Hwf H. pose proof (blen_nonneg buf).
  apply (ef_loop_ind (fun offset st => nokeys_inv v5 st /\ l_size st = offset /\ offset <= blen buf)) in H.
  - destruct H as (off & Ho & (Hi & <- & Hle) & Hn). apply stream_next_none in Hn; [|lia]. split; [exact Hi|lia].
  - intros offset st tid m off' s Ho (Hi & _ & _) E Hs. pose proof (ef_step_size _ _ _ _ _ _ _ _ _ _ Hs) as Hsz.
    apply stream_next_inv in E; [|assumption]. destruct E as (_ & -> & ? & _ & Hmod & Hm).
    destruct (Hm Hwf) as (? & ? & ?). split; [|lia]. eapply nokeys_step; try eassumption. repeat split; assumption.
  - lia.
  - unfold st_init, nokeys_inv; cbn. repeat split; try reflexivity; try lia. intros; constructor.
Qed.

Lemma field_inv : forall data lo hi v, wf_bytes data -> field data lo hi = Ok v ->
  exists s, v = be s /\ s = btake (hi - lo) (bdrop lo data) /\ blen s = hi - lo /\ wf_bytes s.
Proof.
  intros data lo hi v Hwf H. unfold field in H. inv_bind H. rename a into s. inversion H; subst v; clear H.
  apply range_inv in E. destruct E as (_ & _ & _ & Hs & Hl). exists s. repeat split; try assumption.
  subst s. apply wf_btake, wf_bdrop, Hwf.
Qed.

Lemma field_bound : forall data lo hi v, wf_bytes data -> field data lo hi = Ok v -> 0 <= v < 256 ^ (hi - lo).
Proof.
  intros data lo hi v Hwf H. destruct (field_inv _ _ _ _ Hwf H) as (s & -> & _ & Hl & Hws).
  rewrite <- Hl. apply be_bound. exact Hws.
Qed.

Lemma field_take : forall a data lo hi v, wf_bytes data -> field data lo hi = Ok v -> 0 <= a <= lo ->
  btake (hi - a) (bdrop a data) = btake (lo - a) (bdrop a data) ++ to_be (Z.to_nat (hi - lo)) v.
Proof.
  intros a data lo hi v Hwf H Ha. destruct (field_inv _ _ _ _ Hwf H) as (s & -> & Hs & Hl & Hws).
  replace (Z.to_nat (hi - lo)) with (List.length s) by (unfold blen in Hl; lia).
  rewrite to_be_be, Hs by assumption. pose proof (blen_nonneg s). apply btake_split; lia.
Qed.

Lemma leap_rt : forall x l, leap_from_bits x = Ok l -> leap_to_bits l = x.
Proof.
  intros x l H. unfold leap_from_bits in H.
  destruct (x =? 0) eqn:E0; [inversion H; subst; cbn; lia|].
  destruct (x =? 1) eqn:E1; [inversion H; subst; cbn; lia|].
  destruct (x =? 2) eqn:E2; [inversion H; subst; cbn; lia|].
  destruct (x =? 3) eqn:E3; [inversion H; subst; cbn; lia|discriminate].
Qed.

Lemma to_bits_short_rt : forall x, 0 <= x < 4294967296 -> to_bits_short (x * 65536) = Ok (to_be 4 x).
Proof.
  intros x H. unfold to_bits_short. replace (x * 65536 <? 0) with false by lia.
  replace (x * 65536 >? 281474976710655) with false by lia.
  replace ((x * 65536 / 65536) mod 2 ^ 32) with x by lia. reflexivity.
Qed.

Lemma to_bits_time32_rt : forall x, 0 <= x < 4294967296 -> to_bits_time32 (x * 16) = Ok (to_be 4 x).
Proof.
  intros x H. unfold to_bits_time32. replace (x * 16 <? 0) with false by lia.
  replace (x * 16 / 16) with x by lia. replace (x >? 4294967295) with false by lia. reflexivity.
Qed.

Lemma hdr34_serialize_eq : forall data h d0 ver w, wf_bytes data ->
  hdr34_deserialize data = Ok h -> idx data 0 S_DATA0 = Ok d0 -> (d0 / 8) mod 8 = ver ->
  hdr34_serialize w h ver = wr w (btake 48 data).
Proof.
  intros data h d0 ver w Hwf H Hd0 Hver. pose proof (hdr34_ok_len _ _ H) as Hlen.
  unfold hdr34_deserialize, HDR34_WIRE_LENGTH in H.
  replace (blen data <? 48) with false in H by lia.
  repeat inv_bind H. inversion H; subst h; clear H.
  rename a into d0r, a0 into leap, a1 into mode, E into Rd0, E0 into Rleap, E1 into Rmode, E2 into Rstratum,
    E3 into Rpoll, E4 into Rprec, E5 into Rrdel, E6 into Rrdisp, E7 into Rrefid, E8 into Rt1, E9 into Rt2,
    E10 into Rt3, E11 into Rt4.
  rewrite (idx_site _ _ _ S_HDR_INDEX _ Hd0) in Rd0. inversion Rd0; subst d0r; clear Rd0.
  pose proof (field_bound _ _ _ _ Hwf Rrdel) as B4. pose proof (field_bound _ _ _ _ Hwf Rrdisp) as B5.
  change (256 ^ (8 - 4)) with 4294967296 in B4. change (256 ^ (12 - 8)) with 4294967296 in B5.
  assert (is_byte d0) as Hb0 by (eapply Forall_forall; [exact Hwf|eapply idx_inv; exact Hd0]). unfold is_byte in Hb0.
  unfold hdr34_serialize. cbn [h_leap h_mode h_stratum h_poll h_precision h_root_delay h_root_disp h_refid
                               h_ref_ts h_origin_ts h_recv_ts h_xmit_ts].
  rewrite (to_bits_short_rt _ B4), (to_bits_short_rt _ B5). cbn [res_bind].
  rewrite (leap_rt ((d0 / 64) mod 4) leap Rleap).
  unfold mode_from_bits in Rmode. destruct (_ && _) in Rmode; [|discriminate]. inversion Rmode; subst mode; clear Rmode.
  replace (d0 / 64 mod 4 * 64 + ver * 8 + d0 mod 8) with d0 by lia.
  rewrite !wr_app_k, wr_app. f_equal.
  (* the 48 bytes are what the parser read, in the order it read them *)
  change (btake 48 data) with (btake (48 - 0) (bdrop 0 data)).
  rewrite (field_take 0 _ _ _ _ Hwf Rt4), (field_take 0 _ _ _ _ Hwf Rt3), (field_take 0 _ _ _ _ Hwf Rt2),
    (field_take 0 _ _ _ _ Hwf Rt1), (field_take 0 _ _ _ _ Hwf Rrefid), (field_take 0 _ _ _ _ Hwf Rrdisp),
    (field_take 0 _ _ _ _ Hwf Rrdel), (idx_take 0 _ _ _ _ _ Rprec), (idx_take 0 _ _ _ _ _ Rpoll), (idx_take 0 _ _ _ _ _ Rstratum),
    (idx_take 0 _ _ _ _ _ Hd0), <- !app_assoc by (clear; lia).
  reflexivity.
Qed.

(* v5: the header bytes are reproduced except that the leap bits are normalised *)
Definition hdr5_wire (data : bytes) (h : hdr5) : bytes :=
  [leap_to_bits (v_leap h) * 64 + HDR5_VERSION * 8 + v_mode h] ++ btake 47 (bdrop 1 data).

Lemma hdr5_serialize_eq : forall data h w, wf_bytes data ->
  hdr5_deserialize data = Ok h -> hdr5_serialize w h = wr w (hdr5_wire data h).
Proof.
  intros data h w Hwf H. pose proof (hdr5_ok_len _ _ H) as Hlen.
  unfold hdr5_wire. unfold hdr5_deserialize, HDR5_WIRE_LENGTH in H.
  replace (blen data <? 48) with false in H by lia.
  inv_bind H. destruct (negb _) in H; [discriminate|].
  repeat inv_bind H. inversion H; subst h; clear H.
  rename a8 into ts, a10 into fb, a11 into flags, E2 into Rstratum, E3 into Rpoll, E4 into Rprec, E5 into Rrdel,
    E6 into Rrdisp, E7 into Rd12, E8 into Rts, E9 into Rera, E10 into Rfb, E11 into Rflags, E12 into Rsc,
    E13 into Rcc, E14 into Rt3, E15 into Rt4.
  pose proof (field_bound _ _ _ _ Hwf Rrdel) as B4. pose proof (field_bound _ _ _ _ Hwf Rrdisp) as B5.
  change (256 ^ (8 - 4)) with 4294967296 in B4. change (256 ^ (12 - 8)) with 4294967296 in B5.
  (* timescale and flags are the bytes they were read from *)
  unfold v5_timescale_from_bits in Rts. destruct (_ && _) in Rts; [|discriminate]. inversion Rts; subst ts; clear Rts.
  pose proof (range_inv _ _ _ _ _ Rfb) as (_ & _ & _ & Hfb & Hfl).
  assert (exists f0 f1, fb = [f0; f1]) as (f0 & f1 & ->).
  { destruct fb as [|f0 [|f1 [|f2 r]]]; unfold blen in Hfl; cbn [List.length] in Hfl; try lia. eauto. }
  cbn [nth] in Rflags. unfold v5_flags_from_bits in Rflags.
  destruct (_ || _) eqn:Ef in Rflags; [discriminate|]. inversion Rflags; subst flags; clear Rflags.
  assert (wf_bytes [f0; f1]) as Hwfb by (rewrite Hfb; apply wf_btake, wf_bdrop; assumption).
  apply wf_cons_inv in Hwfb. destruct Hwfb as [Hf0 Hwfb]. apply wf_cons_inv in Hwfb. destruct Hwfb as [Hf1 _].
  assert (f0 = 0 /\ f1 mod 8 = f1) as [-> Hf1'] by lia.
  unfold hdr5_serialize. cbn [v_leap v_mode v_stratum v_poll v_precision v_timescale v_era v_flags v_root_delay
                              v_root_disp v_server_cookie v_client_cookie v_recv_ts v_xmit_ts].
  rewrite (to_bits_time32_rt _ B4), (to_bits_time32_rt _ B5). cbn [res_bind].
  rewrite Hf1'.
  rewrite !wr_app_k, wr_app. f_equal. rewrite <- !app_assoc. f_equal.
  change 47 with (48 - 1).
  rewrite (field_take 1 _ _ _ _ Hwf Rt4), (field_take 1 _ _ _ _ Hwf Rt3), (field_take 1 _ _ _ _ Hwf Rcc),
    (field_take 1 _ _ _ _ Hwf Rsc), (range_take 1 _ _ _ _ _ Rfb), (idx_take 1 _ _ _ _ _ Rera), (idx_take 1 _ _ _ _ _ Rd12),
    (field_take 1 _ _ _ _ Hwf Rrdisp), (field_take 1 _ _ _ _ Hwf Rrdel), (idx_take 1 _ _ _ _ _ Rprec), (idx_take 1 _ _ _ _ _ Rpoll),
    (idx_take 1 _ _ _ _ _ Rstratum), <- !app_assoc by (clear; lia).
  reflexivity.
Qed.

Definition header_serialize (w : writer) (hd : header) : res writer :=
  match hd with
  | HV3 h => hdr34_serialize w h 3
  | HV4 h => hdr34_serialize w h 4
  | HV5 h => hdr5_serialize w h
  end.

Definition header_wire (data : bytes) (hd : header) : bytes :=
  match hd with HV5 h => hdr5_wire data h | _ => btake 48 data end.

Lemma header_serialize_eq : forall data hd w, wf_bytes data -> header_deserialize data = Ok hd ->
  header_serialize w hd = wr w (header_wire data hd).
Proof.
  intros data hd w Hwf H. apply header_deserialize_inv in H. destruct H as (_ & (d0 & Hd0 & Hv) & Hh).
  destruct hd; cbn [header_serialize header_wire header_version] in *.
  - eapply hdr34_serialize_eq; eassumption.
  - eapply hdr34_serialize_eq; eassumption.
  - apply hdr5_serialize_eq; assumption.
Qed.

Definition mac_wire (m : option mac) : bytes :=
  match m with None => [] | Some m => to_be 4 (keyid m) ++ macbytes m end.

Lemma opt_mac_inv : forall r m, wf_bytes r -> opt_mac r = Ok m -> mac_wire m = r /\ blen r <= 24.
Proof.
  intros r m Hwf H. unfold opt_mac in H. destruct r as [|x r']; [inversion H; split; [reflexivity|cbn; lia]|].
  remember (x :: r') as r eqn:Er. clear Er. inv_bind H. inversion H; subst m; clear H. rename a into m, E into Rmac.
  unfold mac_deserialize, MAC_MINIMUM_SIZE, MAC_MAXIMUM_SIZE in Rmac.
  destruct (_ || _) eqn:El; [discriminate|]. repeat inv_bind Rmac. inversion Rmac; subst m; clear Rmac. rename a into kb, E into Rkey, E0 into Rrest.
  apply range_inv in Rkey. destruct Rkey as (_ & _ & _ & Ha & Hla).
  apply range_end_inv in Rrest. destruct Rrest as (Hb & _).
  assert (wf_bytes kb) as Hwa by (subst kb; apply wf_btake, wf_bdrop; assumption).
  split; [|lia]. cbn [mac_wire keyid macbytes].
  replace 4%nat with (List.length kb) by (unfold blen in Hla; lia).
  rewrite to_be_be by assumption. rewrite Ha, Hb. exact (firstn_skipn 4 r).
Qed.

Lemma efdata_serialize_eq : forall enc v5 d w, authenticated d = [] -> encrypted d = [] ->
  Forall (field_ok v5) (untrusted d) -> blen (w_out w) <= w_cap w ->
  efdata_serialize enc None w d v5 = wr w (fields_wire v5 (untrusted d)).
Proof.
  intros enc v5 d w Ha He Hf Hw. unfold efdata_serialize. rewrite Ha, He. cbn [res_bind].
  destruct (untrusted d) eqn:Eu.
  - cbn [ef_serialize_untrusted fields_wire]. symmetry. apply wr_nil_room; assumption.
  - apply ef_serialize_untrusted_eq; [assumption|discriminate].
Qed.

Definition plain (p : packet) : Prop :=
  authenticated (p_ef p) = [] /\ encrypted (p_ef p) = [] /\
  Forall (field_ok (is_v5 (p_header p))) (untrusted (p_ef p)) /\
  (header_version (p_header p) = 3 -> untrusted (p_ef p) = []) /\
  opt_mac (mac_wire (p_mac p)) = Ok (p_mac p) /\ blen (mac_wire (p_mac p)) <= ef_cutoff (is_v5 (p_header p)) /\
  (is_v5 (p_header p) = true ->
   exists id, first_draft (untrusted (p_ef p)) = Some id /\ bytes_eqb id draft_version_bytes = true).

Lemma with_fields_plain : forall dec data hd v5 p c, wf_bytes data -> 48 <= blen data ->
  with_fields dec NoKeys data hd 48 v5 = Ok (Accept p c) ->
  c = None /\ p_header p = hd /\ authenticated (p_ef p) = [] /\ encrypted (p_ef p) = [] /\
  Forall (field_ok v5) (untrusted (p_ef p)) /\
  opt_mac (mac_wire (p_mac p)) = Ok (p_mac p) /\ blen (mac_wire (p_mac p)) <= ef_cutoff v5.
Proof.
  intros dec data hd v5 p c Hwf Hlen H. rewrite with_fields_eq in H by lia.
  inv_bind H. rename a into st. apply finish_ok in H. destruct H as (m & E0 & H).
  destruct (l_valid st) eqn:Hv; inversion H; subst p c; clear H. cbn [p_header p_ef p_mac].
  apply nokeys_loop in E; [|apply wf_bdrop; assumption]. destruct E as ((Ha & He & Hc & Hf) & Hsz & Hcut).
  rewrite blen_bdrop in Hsz, Hcut by lia.
  pose proof (opt_mac_inv _ _ (wf_bdrop _ _ Hwf) E0) as (Hw & _).
  rewrite Hw, blen_bdrop by lia. repeat split; auto; lia.
Qed.

Lemma accept_plain : forall dec data p c, wf_bytes data ->
  deserialize dec NoKeys data = Ok (Accept p c) ->
  c = None /\ header_deserialize data = Ok (p_header p) /\ plain p.
Proof.
  intros dec data p c Hwf H. apply deserialize_ok_inv in H. destruct H as (hd & Hhd & H).
  pose proof (header_deserialize_inv _ _ Hhd) as (H48 & _).
  destruct hd; cbn [after_header] in H.
  - inv_bind H. inversion H; subst p c; clear H. split; [reflexivity|]. split; [exact Hhd|].
    pose proof (opt_mac_inv _ _ (wf_bdrop _ _ Hwf) E) as (Hw & Hl).
    unfold plain. cbn [p_header p_ef p_mac is_v5 efdata_empty authenticated encrypted untrusted].
    rewrite Hw. repeat split; try assumption; try constructor. discriminate.
  - apply with_fields_plain in H; try assumption. destruct H as (-> & Hh & Ha & He & Hf & Hm & Hc).
    split; [reflexivity|]. rewrite Hh. split; [exact Hhd|]. unfold plain. rewrite Hh. cbn [is_v5 header_version].
    repeat split; try assumption; discriminate.
  - inv_bind H. pose proof (draft_gate_ok _ _ H). subst a.
    apply with_fields_plain in E; try assumption. destruct E as (-> & Hh & Ha & He & Hf & Hm & Hc).
    split; [reflexivity|]. rewrite Hh. split; [exact Hhd|]. unfold plain. rewrite Hh. cbn [is_v5 header_version].
    repeat split; try assumption; try discriminate. intros _.
    apply draft_gate_accept in H. unfold draft_id in H. rewrite Ha, app_nil_r in H. exact H.
Qed.

(* the encoding of a plain packet whose header encodes as [hw] *)
Definition wire (hw : bytes) (p : packet) : bytes :=
  hw ++ fields_wire (is_v5 (p_header p)) (untrusted (p_ef p)) ++ mac_wire (p_mac p).

Lemma fields_serialize_eq : forall enc p w, plain p -> blen (w_out w) <= w_cap w ->
  match p_header p with
  | HV3 _ => Ok w
  | HV4 _ => efdata_serialize enc None w (p_ef p) false
  | HV5 _ => efdata_serialize enc None w (p_ef p) true
  end = wr w (fields_wire (is_v5 (p_header p)) (untrusted (p_ef p))).
Proof.
  intros enc p w (Ha & He & Hf & H3 & _) Hw. destruct (p_header p); cbn [is_v5 header_version] in *.
  - rewrite H3 by reflexivity. symmetry. apply wr_nil_room. exact Hw.
  - apply efdata_serialize_eq; assumption.
  - apply efdata_serialize_eq; assumption.
Qed.

Lemma mac_opt_serialize_eq : forall w m, blen (w_out w) <= w_cap w ->
  match m with Some m => mac_serialize w m | None => Ok w end = wr w (mac_wire m).
Proof.
  intros w [m|] Hw; [apply wr_app|]. symmetry. apply wr_nil_room. exact Hw.
Qed.

Lemma serialize_plain : forall enc cap p hw, plain p ->
  (forall w, header_serialize w (p_header p) = wr w hw) ->
  blen (wire hw p) <= cap -> serialize enc None cap None p = Ok (wire hw p).
Proof.
  intros enc cap p hw Hp Hh Hcap. unfold wire in *. rewrite !blen_app in Hcap.
  pose proof (blen_nonneg hw). pose proof (blen_nonneg (fields_wire (is_v5 (p_header p)) (untrusted (p_ef p)))).
  pose proof (blen_nonneg (mac_wire (p_mac p))).
  unfold serialize. fold (header_serialize (mkW [] cap) (p_header p)).
  rewrite Hh, wr_ok by (cbn [w_out w_cap]; change (blen []) with 0; lia). cbn [res_bind w_out w_cap app].
  rewrite (fields_serialize_eq enc p _ Hp), wr_ok by (cbn [w_out w_cap]; lia). cbn [res_bind w_out w_cap].
  rewrite mac_opt_serialize_eq, wr_ok by (cbn [w_out w_cap]; rewrite ?blen_app; lia). cbn [res_bind w_out w_cap].
  rewrite <- app_assoc. destruct (p_header p); reflexivity.
Qed.
