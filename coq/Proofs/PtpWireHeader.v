(* C41: the 34-byte header, both directions of the round trip. *)
From V Require Import Model.PtpWire Proofs.Common Proofs.WireBytes Proofs.PtpWireDeSer1.

(* first byte: high nibble of the sdoId and the message type; byte 5 carries the low byte of the sdoId *)
Lemma byte0_ser_de : forall sdo ty, 0 <= sdo < 4096 -> msgtype_ok ty = true ->
  let b := Z.lor ((((sdo / 256) mod 256) * 16) mod 256) (Z.land ty 15) in
  Z.lor ((Z.land b 240) * 16) (sdo mod 256) = sdo /\ Z.land b 15 = ty /\ is_byte b.
Proof.
  intros sdo ty Hs Ht b.
  assert (0 <= ty < 16) as Hty by (unfold msgtype_ok in Ht; lia).
  assert (b = sdo / 256 * 16 + ty) as ->
    by (unfold b; rewrite land_15, !Z.mod_small by lia; apply nibble_pack; lia).
  destruct (nibbles (sdo / 256 * 16 + ty) ltac:(lia)) as [-> ->].
  replace (16 * ((sdo / 256 * 16 + ty) / 16) * 16) with (sdo / 256 * 2 ^ 8) by lia.
  rewrite lor_shifted by lia. unfold is_byte. lia.
Qed.

Lemma version_byte_ser_de : forall vmaj vmin, 0 <= vmaj < 16 -> 0 <= vmin < 16 ->
  let b := Z.lor ((vmin * 16) mod 256) vmaj in Z.land b 15 = vmaj /\ b / 16 = vmin /\ is_byte b.
Proof.
  intros vmaj vmin H1 H2 b.
  assert (b = vmin * 16 + vmaj) as -> by (unfold b; rewrite Z.mod_small by lia; apply nibble_pack; lia).
  rewrite land_15. unfold is_byte. lia.
Qed.

Lemma flags6_ser_de : forall a b c d e,
  let f := b2z a + 2 * b2z b + 4 * b2z c + 32 * b2z d + 64 * b2z e in
  bit 0 f = a /\ bit 1 f = b /\ bit 2 f = c /\ bit 5 f = d /\ bit 6 f = e /\ is_byte f.
Proof. intros [] [] [] [] []; vm_compute; repeat split; discriminate. Qed.

Lemma flags7_ser_de : forall a b c d e g i,
  let f := b2z a + 2 * b2z b + 4 * b2z c + 8 * b2z d + 16 * b2z e + 32 * b2z g + 64 * b2z i in
  bit 0 f = a /\ bit 1 f = b /\ bit 2 f = c /\ bit 3 f = d /\ bit 4 f = e /\ bit 5 f = g /\ bit 6 f = i /\ is_byte f.
Proof. intros [] [] [] [] [] [] []; vm_compute; repeat split; discriminate. Qed.

Lemma header_ser_de : forall h ty mlen rest,
  header_ok h -> version_encodable h = true -> msgtype_ok ty = true -> 0 <= mlen < 65536 ->
  de_header (ser_header h ty mlen ++ rest) = (h, ty, mlen).
Proof.
  intros h ty mlen rest Hok Hv Ht Hm.
  destruct h as [sdo vmaj vmin dom f0 f1 f2 f3 f4 g0 g1 g2 g3 g4 g5 g6 corr [clock port] sq li].
  destruct Hok as (Hsdo & Hmaj & Hmin & Hdom & Hcorr & (Hck & Hcl & Hport) & Hseq & Hli).
  cbn [h_sdo h_vmajor h_vminor h_domain h_correction h_source h_seq h_log_interval pid_clock pid_port] in *.
  unfold version_encodable in Hv. cbn [h_vmajor h_vminor] in Hv. unfold is_byte in *.
  destruct (explicit_bytes 8 clock Hck Hcl) as (C & _ & ->). cbn [map seq].
  destruct (byte0_ser_de sdo ty Hsdo Ht) as (A1 & A2 & A3).
  destruct (version_byte_ser_de vmaj vmin ltac:(lia) ltac:(lia)) as (V1 & V2 & V3).
  destruct (flags6_ser_de f0 f1 f2 f3 f4) as (F0 & F1 & F2 & F3 & F4 & _).
  destruct (flags7_ser_de g0 g1 g2 g3 g4 g5 g6) as (G0 & G1 & G2 & G3 & G4 & G5 & G6 & _).
  unfold de_header, ser_header, flags6, flags7, pid_ser, pid_de, slice, byte.
  cbv [be app nth firstn skipn Nat.sub h_sdo h_vmajor h_vminor h_domain h_alt_master h_two_step h_unicast h_prof1 h_prof2
       h_leap61 h_leap59 h_utc_valid h_ptp_timescale h_time_traceable h_freq_traceable h_sync_uncertain
       h_correction h_source h_seq h_log_interval pid_clock pid_port].
  cbv zeta in A1, A2, V1, V2, F0, F1, F2, F3, F4, G0, G1, G2, G3, G4, G5, G6.
  rewrite A1, A2, V1, V2, F0, F1, F2, F3, F4, G0, G1, G2, G3, G4, G5, G6.
  unbe_rewrite corr 8%nat. unbe_rewrite port 2%nat. unbe_rewrite sq 2%nat. unbe_rewrite mlen 2%nat.
  change (256 ^ Z.of_nat 8) with (2 ^ 64). change (256 ^ Z.of_nat 2) with 65536.
  (* the side conditions are the range hypotheses themselves: [lia] would first expand every
     division of the byte facts above *)
  rewrite (to_signed_wrap 64 corr eq_refl Hcorr).
  rewrite (to_signed_wrap 8 li eq_refl Hli : to_signed 8 (li mod 256) = li).
  rewrite (Z.mod_small port 65536 Hport), (Z.mod_small sq 65536 Hseq), (Z.mod_small mlen 65536 Hm).
  reflexivity.
Qed.

Lemma ser_header_length : forall h ty mlen, length (pid_clock (h_source h)) = 8%nat -> length (ser_header h ty mlen) = 34%nat.
Proof.
  intros h ty mlen H. unfold ser_header, pid_ser. rewrite !app_length, !be_length, H. reflexivity.
Qed.

(* parse then serialise.  Writing the parsed header gives the 34 input bytes under the mask, whose
   header positions do not depend on the message type.  The buffer is not taken apart: both
   sides are brought to lists of [byte i buf] by [slice_explicit] and compared by computation. *)
Lemma header_de_ser : forall buf h ty mlen,
  bytes_ok buf -> (34 <= length buf)%nat -> de_header buf = (h, ty, mlen) -> In ty msg_types ->
  ser_header h ty mlen = mapi_from (norm_byte ty) 0 (firstn 34 buf)
  /\ header_ok h /\ version_encodable h = true
  /\ ty = Z.land (byte 0 buf) 15 /\ mlen = unbe (slice 2 4 buf) /\ 0 <= mlen < 65536.
Proof.
  intros buf h ty mlen Hb L H Hin. unfold de_header in H. injection H as <- <- <-.
  assert (forall b, (b <=? 34)%nat = true -> (b <= length buf)%nat) as Lb
    by (intros b E; apply Nat.leb_le in E; lia).
  assert (forall a b, (b <=? 34)%nat = true -> (a <=? b)%nat = true -> length (slice a b buf) = (b - a)%nat) as SL
    by (intros a b E1 E2; apply Nat.leb_le in E2; apply slice_length; auto).
  pose proof (fun i => byte_ok i _ Hb) as Y. pose proof (fun a b => slice_bytes a b _ Hb) as K.
  destruct (byte0_de_ser _ _ (Y 0%nat) (Y 5%nat)) as (Z0 & Z5 & Zs). cbv zeta in Z0, Z5, Zs.
  destruct (version_byte_de_ser _ (Y 1%nat)) as (V & Vmaj & Vmin).
  destruct (pid_de_ser _ (K 20 30)%nat (SL 20 30 eq_refl eq_refl)%nat) as [Ep Hp].
  pose proof (unbe_range _ (K 30 32)%nat) as R30. rewrite (SL 30 32 eq_refl eq_refl)%nat in R30.
  pose proof (to_signed_range 64 (unbe (slice 8 16 buf)) eq_refl) as R64.
  pose proof (to_signed_range 8 (byte 33 buf) eq_refl) as R8.
  pose proof (unbe_range _ (K 2 4)%nat) as R2. rewrite (SL 2 4 eq_refl eq_refl)%nat in R2.
  split; [|split; [|split; [|exact (conj eq_refl (conj eq_refl R2))]]].
  - unfold ser_header, flags6, flags7.
    cbv [h_sdo h_vmajor h_vminor h_domain h_alt_master h_two_step h_unicast h_prof1 h_prof2
         h_leap61 h_leap59 h_utc_valid h_ptp_timescale h_time_traceable h_freq_traceable h_sync_uncertain
         h_correction h_source h_seq h_log_interval].
    rewrite Z0, Z5, V, (flags6_de_ser _ (Y 6%nat)), (flags7_de_ser _ (Y 7%nat)), Ep.
    rewrite !be_unbe by first [apply slice_bytes; exact Hb | apply SL; reflexivity].
    assert (be 8 (to_signed 64 (unbe (slice 8 16 buf))) = slice 8 16 buf) as ->
      by (pose proof (be_signed _ (K 8 16)%nat) as U; rewrite (SL 8 16 eq_refl eq_refl)%nat in U; exact U).
    rewrite (wrap_to_signed 8 _ (Y 33%nat) : to_signed 8 (byte 33 buf) mod 256 = _).
    change (firstn 34 buf) with (slice 0 34 buf). rewrite !slice_explicit by (apply Lb; reflexivity).
    clear - Hin. revert Hin. generalize (Z.land (byte 0 buf) 15). intros t Hin.
    repeat (destruct Hin as [<-|Hin]; [reflexivity|]). destruct Hin.
  - unfold header_ok.
    cbv [h_sdo h_vmajor h_vminor h_domain h_correction h_source h_seq h_log_interval].
    refine (conj Zs (conj _ (conj _ (conj (Y 4%nat) (conj R64 (conj Hp (conj R30 R8)))))));
      clear - Vmaj Vmin; unfold is_byte; lia.
  - unfold version_encodable. cbv [h_vmajor h_vminor]. clear - Vmaj Vmin. lia.
Qed.
