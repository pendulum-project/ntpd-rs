(* C45: handle_packet always returns, and what it returns is described by [handled]: nothing,
   the answer to a well-formed request, or the answer and its follow-up. *)
From V Require Import Model.Csptp Proofs.Common Proofs.TlvSet Proofs.WireBytes Proofs.PtpWireMsg Proofs.CsptpMsg.
From V Require Import Gen.ConstCsptp.

(* panic-site census of server.rs as modelled: none *)
Example census_server : PANIC_SITES_SERVER = 0. Proof. reflexivity. Qed.

Definition wf_request (pkt : bytes) (req : message) : Prop :=
  msg_deserialize pkt = Ok req
  /\ h_sdo (m_header req) = 768 /\ h_vmajor (m_header req) = 2
  /\ (exists origin, m_body req = Sync origin)
  /\ exists ts, tlvs (m_suffix req) = Ok ts
       /\ count_if (fun t => fst t =? 65280) ts = 1%nat          (* exactly one CSPTP request TLV ... *)
       /\ (forall t, In t ts -> fst t = 65280 -> snd t <> [])    (* ... with a flags octet *)
       /\ count_if (fun t => fst t =? 65281) ts = 0%nat.         (* and no CSPTP response TLV *)

Lemma request_is_wf : forall pkt req,
  csptp_deserialize pkt = Ok req -> is_request req = Ok true -> wf_request pkt req.
Proof.
  intros pkt req Hd Hr. pose proof (csptp_deserialize_inv _ _ Hd) as (E & V & Hs & Hv & Hsync).
  unfold is_request in Hr. destruct (m_body req) as [origin| | | | | | | | | ] eqn:Eb; cbn [is_sync] in Hr; try discriminate.
  destruct Hsync as (ts & Hts & Hone & Hreq & Hresp).
  unfold has_tlv in Hr. rewrite Hts in Hr. cbn [res_bind] in Hr. inversion Hr as [Hex]; clear Hr.
  apply existsb_count in Hex. change TLV_CSPTP_REQUEST with 65280 in *. change TLV_CSPTP_RESPONSE with 65281 in *.
  split; [exact E|]. split; [exact Hs|]. split; [exact Hv|]. split; [eauto|].
  exists ts. split; [exact Hts|]. unfold tlv, count_if in *. split; [lia|]. split; [|lia].
  intros t Hin Hty.
  assert (is_some (req_tlv_try t) = true) as S.
  { apply (filter_same_count (fun t : tlv => fst t =? 65280) (fun t => is_some (req_tlv_try t)) ts);
      [|exact Hreq|exact Hin|apply Z.eqb_eq; exact Hty].
    intros x. unfold req_tlv_try. destruct (fst x =? _); [reflexivity|discriminate]. }
  unfold req_tlv_try in S. rewrite Hty in S. cbn in S.
  intro Hn. rewrite Hn in S. discriminate.
Qed.

Lemma resp_tlv_ser_de : forall r, ts_ok (rt_ingress r) -> - 2 ^ 63 <= rt_correction r < 2 ^ 63 ->
  resp_tlv_try (resp_tlv_make r) = Some r.
Proof.
  intros [ts c] Hts Hc. cbn [rt_ingress rt_correction] in *. unfold resp_tlv_try, resp_tlv_make. cbn [fst snd].
  rewrite Z.eqb_refl. rewrite app_length, ts_ser_length, be_length. cbn [Nat.ltb Nat.leb plus].
  rewrite (slice_0 (ts_ser ts)) by apply ts_ser_length. rewrite ts_ser_de_exact by assumption.
  cbn [rt_ingress rt_correction]. rewrite <- (app_nil_r (be 8 c)). rewrite (slice_mid (ts_ser ts) (be 8 c) [] 10 18) by (rewrite ?ts_ser_length, ?be_length; reflexivity).
  rewrite unbe_be. change (256 ^ Z.of_nat 8) with (2 ^ 64). rewrite to_signed_wrap by lia. reflexivity.
Qed.

Lemma resp_tlv_wf : forall r, tlv_wf (resp_tlv_make r).
Proof.
  intros r. unfold tlv_wf, resp_tlv_make. cbn [fst snd]. rewrite app_length, ts_ser_length, be_length.
  change TLV_CSPTP_RESPONSE with 65281. cbn. lia.
Qed.

Record response_facts (req resp : message) (recv_ts : timestamp) : Prop := mkRF {
  rf_domain : h_domain (m_header resp) = h_domain (m_header req);
  rf_seq : h_seq (m_header resp) = h_seq (m_header req);
  rf_two_step : h_two_step (m_header resp) = true;
  rf_sdo : h_sdo (m_header resp) = 768;
  rf_body : m_body resp = Sync (mkTs 0 0);
  rf_tlvs : exists extra,
      tlvs (m_suffix resp) = Ok (resp_tlv_make (mkRespTlv recv_ts (h_correction (m_header req))) :: extra)
      /\ tlv_valid (m_suffix resp) }.

Lemma new_response_facts : forall cap req recv_ts st resp,
  new_response cap req recv_ts st = Ok resp -> response_facts req resp recv_ts.
Proof.
  intros cap req recv_ts st resp H. unfold new_response in H.
  destr_if H; [discriminate|]. apply bind_ok in H. destruct H as (tsr & _ & H).
  destruct (find_map req_tlv_try tsr) as [[want alt]|]; [|discriminate].
  set (t1 := resp_tlv_make _) in *. pose proof (resp_tlv_wf (mkRespTlv recv_ts (h_correction (m_header req)))) as W1.
  apply bind_ok in H. destruct H as (b1 & E1 & H). apply bind_ok in H. destruct H as (b2 & E2 & H).
  apply Ok_inj in H. subst resp. apply builder_add_inv in E1. destruct E1 as (-> & Ev1 & _).
  (* the set is the response TLV, followed by the status TLV if the request asked for it *)
  assert (exists extra, b2 = tlv_concat (t1 :: extra) /\ Forall tlv_wf (t1 :: extra) /\ Forall tlv_even (t1 :: extra))
    as (extra & -> & W & Ev).
  { destruct want.
    - apply bind_ok in E2. destruct E2 as (t2 & Es & E2). apply builder_add_inv in E2. destruct E2 as (-> & Ev2 & L2 & _).
      assert (tlv_wf t2) as W2.
      { unfold status_tlv_make in Es. destr_if Es; [discriminate|]. apply Ok_inj in Es. subst t2. split; [cbn [fst]; unfold TLV_CSPTP_STATUS; lia|exact L2]. }
      exists [t2]. unfold tlv_concat. cbn [map concat app]. rewrite app_nil_r. auto.
    - apply Ok_inj in E2. subst b2. exists []. unfold tlv_concat. cbn [map concat app]. rewrite app_nil_r. auto. }
  constructor; try reflexivity. cbn [m_suffix]. exists extra. auto using tlvs_concat, tlv_concat_valid.
Qed.

Lemma new_follow_up_ok : forall req resp recv_ts send_ts,
  response_facts req resp recv_ts ->
  new_follow_up resp send_ts =
    Ok (mkMsg (set_two_step (csptp_header (h_domain (m_header req)) (h_seq (m_header req)))) (FollowUp send_ts) []).
Proof.
  intros req resp recv_ts send_ts F. destruct F as [Hd Hs H2 _ Hb [extra [Ht _]]].
  unfold new_follow_up, is_response, has_tlv. rewrite Hb. cbn [is_sync]. rewrite Ht. cbn [res_bind existsb].
  unfold resp_tlv_make at 1. cbn [fst]. rewrite Z.eqb_refl. cbn [orb negb]. rewrite H2, Hd, Hs. reflexivity.
Qed.

Lemma follow_up_serialize_ok : forall domain seq send_ts,
  exists d, msg_serialize (mkMsg (set_two_step (csptp_header domain seq)) (FollowUp send_ts) []) (zero_buf MAX_MESSAGE_SIZE) = Ok d.
Proof.
  intros. apply msg_serialize_fits; [|cbn; lia|reflexivity|reflexivity].
  unfold zero_buf. rewrite repeat_length. cbn. lia.
Qed.

Inductive handled (st : server_state) (pkt : bytes) (recv_ts : timestamp) (se : option timestamp)
  : list (Z * bytes) -> Prop :=
| H_silent : handled st pkt recv_ts se []
| H_answer : forall req resp d1,
    csptp_deserialize pkt = Ok req -> is_request req = Ok true ->
    new_response (Z.to_nat RESPONSE_TLV_BUFFER) req recv_ts st = Ok resp ->
    msg_serialize resp (zero_buf MAX_MESSAGE_SIZE) = Ok d1 ->
    se = None ->
    handled st pkt recv_ts se [(CH_EVENT, d1)]
| H_two : forall req resp d1 send_ts fu d2,
    csptp_deserialize pkt = Ok req -> is_request req = Ok true ->
    new_response (Z.to_nat RESPONSE_TLV_BUFFER) req recv_ts st = Ok resp ->
    msg_serialize resp (zero_buf MAX_MESSAGE_SIZE) = Ok d1 ->
    se = Some send_ts ->
    fu = mkMsg (set_two_step (csptp_header (h_domain (m_header req)) (h_seq (m_header req)))) (FollowUp send_ts) [] ->
    msg_serialize fu (zero_buf MAX_MESSAGE_SIZE) = Ok d2 ->
    handled st pkt recv_ts se [(CH_EVENT, d1); (CH_GENERAL, d2)].

Lemma is_request_total : forall req, tlv_valid (m_suffix req) -> exists b, is_request req = Ok b.
Proof.
  intros req V. unfold is_request, has_tlv. destruct (is_sync _); [|eauto].
  destruct (tlvs_valid_ok _ V) as [l ->]. cbn. eauto.
Qed.

Lemma builder_add_np : forall cap u t, np (builder_add cap u t).
Proof. intros cap u t s H. unfold builder_add in H. cbv zeta in H. repeat destr_if H; discriminate. Qed.

Lemma new_response_np : forall cap req recv_ts st, tlv_valid (m_suffix req) -> np (new_response cap req recv_ts st).
Proof.
  intros cap req recv_ts st V. unfold new_response. destruct (negb _); [apply np_err|].
  apply np_bind; [apply tlvs_np; exact V|]. intros ts _.
  destruct (find_map req_tlv_try ts) as [[want alt]|]; [|apply np_err].
  apply np_bind; [apply builder_add_np|]. intros b1 _. apply np_bind; [|intros; apply np_ok].
  destruct want; [|apply np_ok]. apply np_bind; [|intros; apply builder_add_np].
  unfold status_tlv_make. destruct (negb _); [apply np_err|apply np_ok].
Qed.

Theorem handle_packet_handled : forall st pkt recv_ts se,
  exists l, handle_packet st pkt recv_ts se = Ok l /\ handled st pkt recv_ts se l.
Proof.
  intros st pkt recv_ts se. unfold handle_packet.
  destruct (csptp_deserialize pkt) as [req|e|s] eqn:Ed.
  2:{ eexists; split; [reflexivity|constructor]. }
  2:{ destruct (csptp_deserialize_np _ _ Ed). }
  pose proof (csptp_deserialize_inv _ _ Ed) as (_ & V & _).
  destruct (is_request_total req V) as [isreq Hr]. rewrite Hr. cbn [res_bind].
  destruct isreq; cbn [negb]; [|eexists; split; [reflexivity|constructor]].
  destruct (new_response _ req recv_ts st) as [resp|e|s] eqn:En.
  2:{ eexists; split; [reflexivity|constructor]. }
  2:{ destruct (new_response_np _ _ _ _ V _ En). }
  destruct (msg_serialize resp _) as [d1|e|s] eqn:Es1.
  2:{ eexists; split; [reflexivity|constructor]. }
  2:{ destruct (msg_serialize_np _ _ _ Es1). }
  destruct se as [send_ts|]; [|eexists; split; [reflexivity|eapply H_answer; eauto]].
  pose proof (new_response_facts _ _ _ _ _ En) as F.
  rewrite (new_follow_up_ok _ _ _ send_ts F).
  destruct (follow_up_serialize_ok (h_domain (m_header req)) (h_seq (m_header req)) send_ts) as [d2 Hd2].
  rewrite Hd2. eexists; split; [reflexivity|eapply H_two; eauto].
Qed.

Lemma handled_of : forall st pkt recv_ts se l, handle_packet st pkt recv_ts se = Ok l -> handled st pkt recv_ts se l.
Proof. intros st pkt recv_ts se l H. destruct (handle_packet_handled st pkt recv_ts se) as [l' [H' Hh]]. congruence. Qed.

Lemma handled_first : forall st pkt recv_ts se ch d1 rest,
  handled st pkt recv_ts se ((ch, d1) :: rest) ->
  ch = CH_EVENT /\ exists req resp,
    csptp_deserialize pkt = Ok req /\ is_request req = Ok true
    /\ new_response (Z.to_nat RESPONSE_TLV_BUFFER) req recv_ts st = Ok resp
    /\ msg_serialize resp (zero_buf MAX_MESSAGE_SIZE) = Ok d1.
Proof. intros st pkt recv_ts se ch d1 rest H. inversion H; subst; eauto 8. Qed.

Lemma parsed_correction_range : forall pkt req, msg_deserialize pkt = Ok req ->
  - 2 ^ 63 <= h_correction (m_header req) < 2 ^ 63.
Proof.
  intros pkt req H. rewrite (msg_deserialize_header _ _ H). unfold de_header. cbn [fst h_correction].
  apply (to_signed_range 64). lia.
Qed.

(* the answer: first datagram, on the event channel *)
Theorem echo : forall st pkt recv_ts se ch d1 rest,
  handle_packet st pkt recv_ts se = Ok ((ch, d1) :: rest) -> ts_ok recv_ts ->
  exists req resp extra,
    wf_request pkt req /\ ch = CH_EVENT
    /\ msg_serialize resp (zero_buf MAX_MESSAGE_SIZE) = Ok d1
    /\ h_sdo (m_header resp) = 768
    /\ h_domain (m_header resp) = h_domain (m_header req)
    /\ h_seq (m_header resp) = h_seq (m_header req)
    /\ h_two_step (m_header resp) = true
    /\ (exists origin, m_body resp = Sync origin)
    /\ tlvs (m_suffix resp) = Ok (resp_tlv_make (mkRespTlv recv_ts (h_correction (m_header req))) :: extra)
    /\ find_map resp_tlv_try (resp_tlv_make (mkRespTlv recv_ts (h_correction (m_header req))) :: extra)
       = Some (mkRespTlv recv_ts (h_correction (m_header req))).
Proof.
  intros st pkt recv_ts se ch d1 rest H Hts. apply handled_of, handled_first in H.
  destruct H as (-> & req & resp & Hd & Hr & Hn & Hs).
  pose proof (request_is_wf _ _ Hd Hr) as W.
  destruct (new_response_facts _ _ _ _ _ Hn) as [F1 F2 F3 F4 F5 [extra [F6 _]]].
  exists req, resp, extra.
  split; [exact W|]. split; [reflexivity|]. split; [exact Hs|]. split; [exact F4|]. split; [exact F1|].
  split; [exact F2|]. split; [exact F3|]. split; [eauto|]. split; [exact F6|].
  cbn [find_map]. rewrite resp_tlv_ser_de; [reflexivity|exact Hts|].
  cbn [rt_correction]. destruct W as [Hm _]. eapply parsed_correction_range; eauto.
Qed.
