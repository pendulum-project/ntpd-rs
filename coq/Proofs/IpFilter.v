(* C31, part 4: the node array built by fill_node represents its prefix list (layout: the
   children of a node are contiguous, indexed by popcount); create followed by lookup is the naive
   test.  The lemmas about IpFilter::new / is_in and IpSubnet::from_str that the theorems of
   Props/C31.v are proved from close the file. *)
From V Require Import Model.IpFilter Gen.ConstIpFilter.
From V Require Import Proofs.Common Proofs.IpFilterArith Proofs.IpFilterPrefix Proofs.IpFilterNode.
From Coq Require Import Sorting.Sorted Permutation.

(* [shl] and [wrap] are rewritten with the shl... lemmas of IpFilterArith, never unfolded by cbn *)
Arguments shl : simpl never.
Arguments wrap : simpl never.

Lemma set_nth_length : forall (A : Type) n (x : A) l, (n < length l)%nat -> length (set_nth n x l) = length l.
Proof.
  induction n; intros x l H; destruct l; simpl in H; try lia. reflexivity.
  change (set_nth (S n) x (a :: l)) with (a :: set_nth n x l). simpl. f_equal. apply IHn. lia.
Qed.

Lemma set_nth_same : forall (A : Type) n (x : A) l, (n < length l)%nat -> nth_error (set_nth n x l) n = Some x.
Proof.
  induction n; intros x l H; destruct l; simpl in H; try lia. reflexivity.
  change (set_nth (S n) x (a :: l)) with (a :: set_nth n x l). simpl. apply IHn. lia.
Qed.

Lemma set_nth_other : forall (A : Type) n (x : A) l p, (n < length l)%nat -> p <> n ->
  nth_error (set_nth n x l) p = nth_error l p.
Proof.
  induction n; intros x l p H Hp; destruct l; simpl in H; try lia.
  - destruct p. lia. reflexivity.
  - change (set_nth (S n) x (a :: l)) with (a :: set_nth n x l). destruct p. reflexivity. simpl. apply IHn; lia.
Qed.

(* lookups started at node [idx] answer "is the address in [data]", and read the array only at
   [idx] and inside [lo, hi): they stay right whatever is written elsewhere *)
Definition Subtree (f : nat) (nodes : list node) (idx lo hi : nat) (data : list entry) : Prop :=
  (hi <= length nodes)%nat /\
  forall nodes2, (forall p, p = idx \/ (lo <= p < hi)%nat -> nth_error nodes2 p = nth_error nodes p) ->
  forall a, in128 a -> lookup_from f nodes2 (Z.of_nat idx) a = Ok (existsb (econtains a) data).

Lemma Subtree_stable : forall f nodes nodes1 idx lo hi data,
  Subtree f nodes idx lo hi data -> (hi <= length nodes1)%nat ->
  (forall p, p = idx \/ (lo <= p < hi)%nat -> nth_error nodes1 p = nth_error nodes p) ->
  Subtree f nodes1 idx lo hi data.
Proof.
  intros f nodes nodes1 idx lo hi data [Hh Hs] Hl Hag. split. exact Hl.
  intros nodes2 H2 a Ha. apply Hs; auto. intros p Hp. rewrite H2 by exact Hp. apply Hag. exact Hp.
Qed.

(* what fill_node (or the recursive call inside fill_children) guarantees *)
Definition fill_ok (f : nat) (rec : list node -> list entry -> nat -> res (list node))
    (nodes : list node) (data : list entry) (idx : nat) : Prop :=
  exists nodes', rec nodes data idx = Ok nodes' /\
    (length nodes <= length nodes')%nat /\
    (length nodes' <= length nodes + f * length data)%nat /\
    (forall p, (p < length nodes)%nat -> p <> idx -> nth_error nodes' p = nth_error nodes p) /\
    Subtree f nodes' idx (length nodes) (length nodes') data.

(* where fill_node may write: an existing node that is still the default *)
Definition fill_pre (nodes : list node) (idx : nat) : Prop :=
  (idx < length nodes)%nat /\ nth_error nodes idx = Some default_node.

(* the number of prefixes in a list of segments *)
Definition seglen (l : list (Z * list entry)) : nat := fold_right (fun p acc => length (snd p) + acc)%nat O l.

(* the segments of the nibbles the bitmap [known] leaves undecided: those that get a child node *)
Definition unknown_of (known : Z) (isegs : list (Z * list entry)) : list (Z * list entry) :=
  filter (fun p => negb (bit16 known (fst p))) isegs.

(* the loop over the undecided segments: every child subtree is right, nothing else is touched,
   and the array grows by at most f nodes per prefix handed down *)
Lemma fill_children_spec : forall f rec known isegs nodes child,
  (forall i seg, In (i, seg) (unknown_of known isegs) -> forall nodes idx, fill_pre nodes idx ->
     Z.of_nat (length nodes) + Z.of_nat f * Z.of_nat (length seg) < 2 ^ 32 ->
     fill_ok f rec nodes (map shift_entry seg) idx) ->
  (child + length (unknown_of known isegs) <= length nodes)%nat ->
  (forall p, (child <= p < child + length (unknown_of known isegs))%nat -> nth_error nodes p = Some default_node) ->
  Z.of_nat (length nodes) + Z.of_nat f * Z.of_nat (seglen (unknown_of known isegs)) < 2 ^ 32 ->
  exists nodes', fill_children rec known isegs nodes child = Ok nodes' /\
    (length nodes <= length nodes')%nat /\
    (length nodes' <= length nodes + f * seglen (unknown_of known isegs))%nat /\
    (forall p, (p < length nodes)%nat -> ~ (child <= p < child + length (unknown_of known isegs))%nat ->
       nth_error nodes' p = nth_error nodes p) /\
    (forall m i seg, nth_error (unknown_of known isegs) m = Some (i, seg) ->
       exists lo hi, (length nodes <= lo)%nat /\ (hi <= length nodes')%nat /\
         Subtree f nodes' (child + m) lo hi (map shift_entry seg)).
Proof.
  intros f rec known. induction isegs as [| [i seg] rest IH]; intros nodes child Hrec Hroom Hdef Hsize.
  - simpl. exists nodes. split. reflexivity. split. lia. split. simpl. lia. split. auto.
    intros m i seg H. destruct m; discriminate.
  - unfold unknown_of in *. cbn [fill_children filter fst] in *. destruct (bit16 known i) eqn:B; cbn [negb] in *.
    + apply IH; auto.
    + cbn [length seglen fold_right snd] in *. fold (seglen (filter (fun p => negb (bit16 known (fst p))) rest)) in *.
      set (us := filter (fun p => negb (bit16 known (fst p))) rest) in *.
      destruct (Hrec i seg (or_introl eq_refl) nodes child) as (nodes1 & E1 & L1 & L1' & U1 & S1).
      { split. lia. apply Hdef. lia. }
      { nia. }
      rewrite E1. cbn [res_bind]. rewrite map_length in L1'.
      destruct (IH nodes1 (S child)) as (nodes' & E2 & L2 & L2' & U2 & S2).
      { intros i' seg' Hin. apply (Hrec i' seg'). right. exact Hin. }
      { lia. }
      { intros p Hp. rewrite U1 by lia. apply Hdef. lia. }
      { nia. }
      exists nodes'. split. exact E2. split. lia. split. nia. split.
      * intros p Hp Hn. rewrite U2 by lia. apply U1; lia.
      * intros m i' seg' Hm. destruct m.
        -- simpl in Hm. inversion Hm; subst i' seg'. exists (length nodes), (length nodes1).
           split. lia. split. lia. rewrite Nat.add_0_r. eapply Subtree_stable. exact S1. lia.
           intros p Hp. apply U2; lia.
        -- simpl in Hm. destruct (S2 m i' seg' Hm) as (lo & hi & Hlo & Hhi & Hs).
           exists lo, hi. split. lia. split. lia. replace (child + S m)%nat with (S child + m)%nat by lia. exact Hs.
Qed.

(* bookkeeping of segment sizes (for the u32 child offsets) *)
Lemma seglen_cons_data : forall x r (l : list Z),
  seglen (map (fun i => (i, seg_of (x :: r) i)) l) =
  (seglen (map (fun i => (i, seg_of r i)) l) + length (filter (fun i => (key x =? i)%Z) l))%nat.
Proof.
  induction l as [| i l IH]. reflexivity.
  cbn [map seglen fold_right snd filter]. fold (seglen (map (fun i => (i, seg_of (x :: r) i)) l)).
  fold (seglen (map (fun i => (i, seg_of r i)) l)). rewrite IH.
  unfold seg_of at 1. cbn [filter]. fold (seg_of r i). destruct (key x =? i); cbn [length]; lia.
Qed.

Lemma one_hit : forall (m : nat) k, 0 <= k < Z.of_nat m -> length (filter (fun i => k =? i) (zseq m)) = 1%nat.
Proof.
  induction m; intros k Hk. lia.
  rewrite zseq_S, filter_app, app_length. cbn [filter]. destruct (Z.eqb_spec k (Z.of_nat m)).
  - rewrite filter_none. reflexivity. intros x Hx. apply in_zseq in Hx. lia.
  - rewrite IHm by lia. reflexivity.
Qed.

Lemma seglen_isegs : forall data : list entry, (forall e, In e data -> in128 (fst e)) -> seglen (isegs_of data) = length data.
Proof.
  induction data as [| x r IH]; intros H.
  - reflexivity.
  - unfold isegs_of. rewrite seglen_cons_data. fold (isegs_of r). rewrite IH by (intros; apply H; right; assumption).
    rewrite one_hit. cbn [length]. lia. apply (key_range x). apply H. left. reflexivity.
Qed.

Lemma seglen_filter : forall g l, (seglen (filter g l) <= seglen l)%nat.
Proof. induction l; cbn [filter seglen fold_right]. lia. destruct (g a); cbn [seglen fold_right]; fold (seglen l); fold (seglen (filter g l)); lia. Qed.

Lemma seglen_nonempty : forall l, (forall p, In p l -> snd p <> []) -> (length l <= seglen l)%nat.
Proof.
  induction l as [| p l IH]; intros H. cbn. lia.
  cbn [seglen fold_right length]. fold (seglen l). specialize (IH (fun q Hq => H q (or_intror Hq))).
  specialize (H p (or_introl eq_refl)). destruct (snd p). congruence. cbn [length]. lia.
Qed.

Lemma unknown_of_spec : forall known data,
  unknown_of known (isegs_of data) =
  map (fun i => (i, seg_of data i)) (filter (fun i => negb (Z.testbit known i)) (zseq 16)).
Proof.
  intros. unfold unknown_of, isegs_of. rewrite filter_map_comm. f_equal. cbn [fst].
  apply filter_ext_in. intros i Hi. apply in_zseq in Hi. rewrite bit16_testbit by lia. reflexivity.
Qed.

Lemma unknown_of_length : forall known data,
  length (unknown_of known (isegs_of data)) = Z.to_nat (count_zeros16 known).
Proof.
  intros. rewrite unknown_of_spec, map_length, count_zeros16_spec, bcount_filter. lia.
Qed.

Lemma unknown_of_in : forall known data i seg, In (i, seg) (unknown_of known (isegs_of data)) ->
  0 <= i < 16 /\ seg = seg_of data i /\ Z.testbit known i = false.
Proof.
  intros known data i seg Hin. rewrite unknown_of_spec in Hin. apply in_map_iff in Hin.
  destruct Hin as (j & Ej & Hj). inversion Ej; subst. apply filter_In in Hj. destruct Hj as [Hj1 Hj2].
  apply in_zseq in Hj1. split. lia. split. reflexivity. apply negb_true_iff. exact Hj2.
Qed.

(* the undecided nibble n is found at its rank among the undecided nibbles *)
Lemma unknown_of_nth : forall known data n, 0 <= n < 16 -> Z.testbit known n = false ->
  nth_error (unknown_of known (isegs_of data)) (length (filter (fun k => negb (Z.testbit known k)) (zseq (Z.to_nat n)))) =
  Some (n, seg_of data n).
Proof.
  intros known data n Hn Hk. rewrite unknown_of_spec. apply (map_nth_error (fun i => (i, seg_of data i))).
  apply nth_filter_zseq. lia. rewrite Hk. reflexivity.
Qed.

Definition data_ok (f : nat) (data : list entry) : Prop :=
  (forall e, In e data -> wf_entry e /\ snd e <= 4 * Z.of_nat f) /\ StronglySorted entry_le data.

Lemma fill_node_S : forall f data nodes idx,
  (forall e, In e data -> in128 (fst e)) -> StronglySorted entry_le data -> nth_error nodes idx = Some default_node ->
  fill_node (S f) nodes data idx =
  fill_children (fill_node f) (node_known data) (isegs_of data)
    (set_nth idx (mk_node (wrap 32 (Z.of_nat (length nodes))) (node_ins data) (node_outs data)) nodes
     ++ repeat default_node (Z.to_nat (count_zeros16 (node_known data)))) (length nodes).
Proof.
  intros f data nodes idx H128 Hsorted Hdef. cbn [fill_node]. rewrite segments_spec by assumption. cbn [res_bind].
  rewrite combine_map_r, Hdef. fold (isegs_of data). cbn [inset outset default_node].
  unfold node_known, node_outs, node_outs0, node_ins.
  destruct (fold_left seg_step (isegs_of data) (0, 0)) as [ins outs0]. reflexivity.
Qed.

Lemma lookup_from_S : forall f nodes idx nd a, nth_error nodes idx = Some nd -> in128 a ->
  lookup_from (S f) nodes (Z.of_nat idx) a =
  if Z.testbit (inset nd) (top_nibble a) then Ok true
  else if Z.testbit (outset nd) (top_nibble a) then Ok false
  else lookup_from f nodes
         (wrap 32 (child_offset nd + Z.of_nat (length (filter (fun k => negb (Z.testbit (Z.lor (inset nd) (outset nd)) k))
                                                                (zseq (Z.to_nat (top_nibble a)))))))
         (shl 128 a 4).
Proof.
  intros f nodes idx nd a Hnd Ha. pose proof (top_nibble_range a Ha) as Hn.
  cbn [lookup_from]. rewrite Nat2Z.id, Hnd. fold (bit16 (inset nd) (top_nibble a)) (bit16 (outset nd) (top_nibble a)).
  rewrite !bit16_testbit, rank_spec, bcount_filter by exact Hn. reflexivity.
Qed.

(* the segments handed to the children: non-empty, and again sorted well-formed prefix lists,
   4 bits shorter *)
Lemma child_data_ok : forall f data i seg, data_ok (S f) data ->
  In (i, seg) (unknown_of (node_known data) (isegs_of data)) ->
  data_ok f (map shift_entry seg) /\ seg <> [] /\ forall e, In e (map shift_entry seg) -> 1 <= snd e.
Proof.
  intros f data i seg [Hok Hsorted] Hin.
  assert (Hwf : forall e, In e data -> wf_entry e) by (intros e He; apply Hok; exact He).
  destruct (unknown_of_in _ _ i seg Hin) as (Hi & -> & Hk).
  destruct (undecided_seg data Hwf Hsorted i Hi Hk) as [Hne Hlong].
  destruct (shifted_ok data Hwf Hsorted i Hlong) as (Swf & Ssorted & Slen).
  split; [split; [| exact Ssorted] | split; [exact Hne |]]; intros e He; destruct (Slen e He) as (e0 & He0 & E).
  - split. apply Swf; exact He. apply in_seg_of in He0. destruct (Hok e0 (proj1 He0)). lia.
  - specialize (Hlong e0 He0). lia.
Qed.

(* so the new nodes (one per undecided nibble) are at most as many as the prefixes handed down,
   and those are among the prefixes of this node *)
Lemma unknown_sizes : forall f data, data_ok f data ->
  let us := unknown_of (node_known data) (isegs_of data) in
  (length us <= seglen us)%nat /\ (seglen us <= length data)%nat.
Proof.
  intros f data [Hok Hsorted] us.
  assert (Hwf : forall e, In e data -> wf_entry e) by (intros e He; apply Hok; exact He).
  split.
  - apply seglen_nonempty. intros [i seg] Hp. cbn [snd]. destruct (unknown_of_in _ _ i seg Hp) as (Hi & -> & Hk).
    apply (undecided_seg data Hwf Hsorted i Hi Hk).
  - unfold us, unknown_of. rewrite <- (seglen_isegs data) by (intros e He; apply Hwf; exact He). apply seglen_filter.
Qed.

(* one level of lookup: right at this node if the children (at offset c, by rank) are right *)
Lemma node_lookup : forall f data nodes idx c,
  (forall e, In e data -> wf_entry e) -> StronglySorted entry_le data ->
  nth_error nodes idx = Some (mk_node (wrap 32 (Z.of_nat c)) (node_ins data) (node_outs data)) ->
  Z.of_nat c + Z.of_nat (length (unknown_of (node_known data) (isegs_of data))) <= 2 ^ 32 ->
  (forall m n, nth_error (unknown_of (node_known data) (isegs_of data)) m = Some (n, seg_of data n) ->
     forall a, in128 a ->
     lookup_from f nodes (Z.of_nat (c + m)) a = Ok (existsb (econtains a) (map shift_entry (seg_of data n)))) ->
  forall a, in128 a -> lookup_from (S f) nodes (Z.of_nat idx) a = Ok (existsb (econtains a) data).
Proof.
  intros f data nodes idx c Hwf Hsorted Hnode Hc Hsub a Ha.
  pose proof (top_nibble_range a Ha) as Hn.
  rewrite (lookup_from_S f nodes idx _ a Hnode Ha). cbn [inset outset child_offset].
  fold (node_known data). set (n := top_nibble a) in *.
  destruct (Z.testbit (node_ins data) n) eqn:Bi.
  { f_equal. symmetry. apply ins_sound; auto. }
  destruct (Z.testbit (node_outs data) n) eqn:Bo.
  { f_equal. symmetry. apply outs_sound; auto. }
  assert (Hk : Z.testbit (node_known data) n = false) by (rewrite known_bit, Bi, Bo by exact Hn; reflexivity).
  destruct (undecided data Hwf Hsorted a Ha Hk) as [_ ->]. fold n.
  pose proof (unknown_of_nth (node_known data) data n Hn Hk) as Hm.
  assert (Hlt : (length (filter (fun k => negb (Z.testbit (node_known data) k)) (zseq (Z.to_nat n)))
                 < length (unknown_of (node_known data) (isegs_of data)))%nat) by (apply nth_error_Some; congruence).
  rewrite wrap32_child by lia. apply (Hsub _ _ Hm), in128_shl4.
Qed.

Lemma fill_node_step : forall f data nodes idx,
  data_ok (S f) data -> fill_pre nodes idx ->
  Z.of_nat (length nodes) + Z.of_nat (S f) * Z.of_nat (length data) < 2 ^ 32 ->
  (forall d nodes idx, data_ok f d -> d <> [] -> (forall e, In e d -> 1 <= snd e) -> fill_pre nodes idx ->
     Z.of_nat (length nodes) + Z.of_nat f * Z.of_nat (length d) < 2 ^ 32 ->
     fill_ok f (fill_node f) nodes d idx) ->
  fill_ok (S f) (fill_node (S f)) nodes data idx.
Proof.
  (* Plan: fill_node writes the node at idx, appends one default node per undecided nibble (nodes2)
     and runs fill_children on them.  fill_children_spec, fed with the hypothesis on the recursive
     calls (the children's data are fine by child_data_ok, the sizes by unknown_sizes), gives the
     final array nodes'; the node at idx is still the one written, so node_lookup reduces a
     lookup at idx to the lookups in the child subtrees, which fill_children_spec provides. *)
  intros f data nodes idx Hd [Hidx Hdef] Hsize Hchild. pose proof Hd as [Hok Hsorted].
  assert (Hwf : forall e, In e data -> wf_entry e) by (intros e He; apply Hok; exact He).
  unfold fill_ok. rewrite fill_node_S by (try (intros e He; apply Hwf); assumption).
  set (known := node_known data).
  set (newnode := mk_node (wrap 32 (Z.of_nat (length nodes))) (node_ins data) (node_outs data)).
  set (U := Z.to_nat (count_zeros16 known)).
  set (nodes2 := set_nth idx newnode nodes ++ repeat default_node U).
  set (us := unknown_of known (isegs_of data)).
  assert (HU : length us = U) by apply unknown_of_length.
  destruct (unknown_sizes _ data Hd) as [HUle Hseglen]. fold known us in HUle, Hseglen. rewrite HU in HUle.
  assert (Hlen2 : length nodes2 = (length nodes + U)%nat).
  { unfold nodes2. rewrite app_length, set_nth_length, repeat_length by exact Hidx. reflexivity. }
  destruct (fill_children_spec f (fill_node f) known (isegs_of data) nodes2 (length nodes)) as (nodes' & E & L & L' & Un & Sub).
  { intros i seg Hin nodes0 idx0 Hpre Hsz. destruct (child_data_ok f data i seg Hd Hin) as (D1 & D2 & D3).
    apply Hchild; [exact D1 | destruct seg; [congruence | discriminate] | exact D3 | exact Hpre |].
    rewrite map_length. exact Hsz. }
  { fold us. lia. }
  { fold us. intros p Hp. unfold nodes2. rewrite nth_error_app2; rewrite set_nth_length by exact Hidx; [| lia].
    apply nth_error_repeat. lia. }
  { fold us. nia. }
  fold us in L', Un, Sub. rewrite E.
  exists nodes'. split. reflexivity.
  assert (Hnode : nth_error nodes' idx = Some newnode).
  { rewrite Un by lia. unfold nodes2. rewrite nth_error_app1 by (rewrite set_nth_length; lia).
    apply set_nth_same. exact Hidx. }
  split. lia. split. nia. split.
  - intros p Hp Hne. rewrite Un by lia. unfold nodes2. rewrite nth_error_app1 by (rewrite set_nth_length; lia).
    apply set_nth_other; auto.
  - split. lia. intros nodes3 Hag. apply (node_lookup f data nodes3 idx (length nodes) Hwf Hsorted).
    + rewrite Hag by (left; reflexivity). exact Hnode.
    + fold known us. nia.
    + intros m n Hm a Ha. assert (Hmlt : (m < U)%nat) by (rewrite <- HU; apply nth_error_Some; unfold us, known; congruence).
      destruct (Sub m n (seg_of data n) Hm) as (lo & hi & Hlo & Hhi & _ & Hs).
      apply Hs. 2: exact Ha. intros p Hp. apply Hag. right. lia.
Qed.

Lemma fill_node_spec : forall f data nodes idx,
  data_ok (S f) data -> fill_pre nodes idx ->
  Z.of_nat (length nodes) + Z.of_nat (S f) * Z.of_nat (length data) < 2 ^ 32 ->
  fill_ok (S f) (fill_node (S f)) nodes data idx.
Proof.
  induction f; intros data nodes idx Hd Hp Hs; apply fill_node_step; try assumption.
  - intros d nodes0 idx0 [Hok _] Hne Hlen _ _. exfalso. destruct d as [| e d]. congruence.
    destruct (Hok e (or_introl eq_refl)) as [_ H1]. specialize (Hlen e (or_introl eq_refl)). lia.
  - intros d nodes0 idx0 Hd0 _ _ Hp0 Hs0. apply IHf; assumption.
Qed.

(* any 128-bit value with any length 0..128: what BitTree::create accepts *)
Definition entry_in_range (e : entry) : Prop := in128 (fst e) /\ 0 <= snd e <= 128.

(* the naive test: equal under the mask of the prefix length *)
Definition naive (a : Z) (e : entry) : bool := fst e / psize (snd e) =? a / psize (snd e).

Lemma create_spec : forall data, Forall entry_in_range data ->
  1 + 33 * Z.of_nat (length data) < 2 ^ 32 ->
  exists nodes, create data = Ok nodes /\
    forall a, in128 a -> lookup nodes a = Ok (existsb (naive a) data).
Proof.
  intros data Hr Hsize. unfold create.
  set (masked := map (fun e => (apply_mask (fst e) (snd e), snd e)) data).
  set (sorted := sort_entries masked).
  assert (Hperm : Permutation sorted masked) by apply sort_perm.
  assert (Hmasked : forall e, In e masked -> wf_entry e /\ snd e <= 128).
  { intros e He. unfold masked in He. apply in_map_iff in He. destruct He as (e0 & <- & He0).
    rewrite Forall_forall in Hr. destruct (Hr e0 He0) as [H1 H2]. split. apply apply_mask_wf; assumption.
    cbn [snd]. lia. }
  assert (Hok : data_ok 33 sorted).
  { split. intros e He. destruct (Hmasked e (Permutation_in _ Hperm He)). split. assumption. lia.
    apply sort_ssorted. }
  assert (Hlen : length sorted = length data).
  { rewrite (Permutation_length Hperm). unfold masked. apply map_length. }
  destruct (fill_node_spec 32 sorted [default_node] 0%nat Hok) as (nodes & E & _ & _ & _ & Hsub).
  { split. cbn. lia. reflexivity. }
  { rewrite Hlen. cbn [length]. lia. }
  change CREATE_FUEL with 33%nat. rewrite E. exists nodes. split. reflexivity.
  intros a Ha. unfold lookup. change LOOKUP_FUEL with 33%nat. destruct Hsub as [_ Hs].
  change 0 with (Z.of_nat 0). rewrite Hs; auto. f_equal.
  rewrite (existsb_perm _ _ _ Hperm). unfold masked. rewrite existsb_map.
  apply existsb_ext_in. intros e He. rewrite Forall_forall in Hr. destruct (Hr e He).
  unfold naive. symmetry. apply contains_interval; assumption.
Qed.

(* the tree of one address family: each subnet contributes at most one prefix *)
Lemma create_flat_map : forall (g : subnet -> list entry) subnets,
  (forall s, (length (g s) <= 1)%nat) -> (forall s, In s subnets -> Forall entry_in_range (g s)) ->
  1 + 33 * Z.of_nat (length subnets) < 2 ^ 32 ->
  exists nodes, create (flat_map g subnets) = Ok nodes /\
    forall a, in128 a -> lookup nodes a = Ok (existsb (fun s => existsb (naive a) (g s)) subnets).
Proof.
  intros g subnets Hlen Hr Hsize. destruct (create_spec (flat_map g subnets)) as (t & E & L).
  - apply Forall_forall. intros e He. apply in_flat_map in He. destruct He as (s & Hin & He).
    exact (proj1 (Forall_forall _ _) (Hr s Hin) e He).
  - pose proof (flat_map_length_le _ _ g subnets Hlen). lia.
  - exists t. split. exact E. intros a Ha. rewrite L, existsb_flat_map by exact Ha. reflexivity.
Qed.

Lemma canonical_range : forall a, wf_addr a ->
  match to_canonical a with V4 x => 0 <= x < 2 ^ 32 | V6 x => in128 x end.
Proof.
  intros [x | x] H; cbn [to_canonical wf_addr] in *. exact H.
  destruct (x / 2 ^ 32 =? 65535). apply Z.mod_pos_bound. reflexivity. exact H.
Qed.

Lemma v4_embed : forall x, 0 <= x < 2 ^ 32 -> shl 128 x V4_SHIFT = x * 2 ^ 96 /\ in128 (x * 2 ^ 96).
Proof.
  intros x H. unfold shl, wrap, V4_SHIFT, in128. change (96 mod 128) with 96.
  assert (0 <= x * 2 ^ 96 < 2 ^ 128) by lia. rewrite Z.mod_small by assumption. auto.
Qed.

Lemma v4_naive : forall n x m, 0 <= m <= 32 ->
  naive (x * 2 ^ 96) (n * 2 ^ 96, m) = (n / 2 ^ (32 - m) =? x / 2 ^ (32 - m)).
Proof.
  intros n x m Hm. unfold naive, psize. cbn [fst snd].
  replace (128 - m) with ((32 - m) + 96) by lia. rewrite Z.pow_add_r by lia.
  assert (0 < 2 ^ (32 - m)) by (apply Z.pow_pos_nonneg; lia).
  rewrite !Z.div_mul_cancel_r by lia. reflexivity.
Qed.

(* the census of panic sites of the modelled functions (see tools/consts/ipfilter.py) *)
Lemma panic_site_census : IPFILTER_INDEX_SITES = 3 /\ IPFILTER_SPLIT_SITES = 1.
Proof. split; reflexivity. Qed.

Definition mask_fits (a : ipaddr) (m : Z) : Prop :=
  match a, to_canonical a with
  | V6 _, V4 _ => 96 <= m <= 128
  | V4 _, _ => m <= 32
  | V6 _, _ => m <= 128
  end.

Definition canonical_subnet (a : ipaddr) (m : Z) : subnet :=
  match a, to_canonical a with
  | V6 _, V4 c => mk_subnet (V4 c) (m - 96)
  | _, _ => mk_subnet a m
  end.

(* the last test of from_str *)
Lemma mask_check_ok : forall (a : ipaddr) m mx s,
  (if m >? mx then Err E_MASK else Ok (mk_subnet a m)) = Ok s <-> m <= mx /\ s = mk_subnet a m.
Proof.
  intros a m mx s. destruct (Z.gtb_spec m mx); split; try discriminate;
    [lia | intros [= <-]; auto | intros [_ ->]; reflexivity].
Qed.

(* an IPv4-mapped IPv6 address is looked up as the IPv4 address it embeds *)
Lemma mapped_canonical : forall x, 0 <= x < 2 ^ 32 -> to_canonical (V6 (65535 * 2 ^ 32 + x)) = V4 x.
Proof.
  intros x H. cbn [to_canonical].
  rewrite Z.div_add_l, Z.div_small, (Z.add_comm _ x), Z.mod_add, Z.mod_small by lia. reflexivity.
Qed.

(* For closed test vectors: [pattern x; apply eval_once] binds a subterm that occurs under a
   [map] or in several conjuncts by a [let], so that the kernel (and coqchk, which re-evaluates
   every [vm_compute] with its lazy machine) computes it once instead of once per occurrence. *)
Lemma eval_once {A} (x : A) (P : A -> Prop) : (let y := x in P y) -> P x.
Proof. exact (fun H => H). Qed.
