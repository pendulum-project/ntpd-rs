(* Lemmas about Model/Server.v.  [respond] is read through three steps with one specification each; [handle_cases]
   says that [handle] is an early Ignore or one call of [respond]; every theorem about one datagram (C15, C20-C22) is a
   case split on these.  Histories go through [handle_all_cons]; the counters of ServerStats through [counter_counts]. *)
From V Require Import Model.Server Proofs.RateCache Proofs.Common.

Definition never_time (r : result) : Prop := o_out r <> ORespond ATime.

(* what a list action allows: nothing at all / at most a DENY kiss *)
Definition listed_outcome (a : faction) (rq : request) (r : result) : Prop :=
  match a with
  | FIgnore => o_out r = OIgnore /\ o_regs r = [(r_fbv rq, false, Policy, RIgnore)]
  | FDeny => o_out r = OIgnore \/ (o_out r = ORespond ADenyKiss /\ exists v n, o_regs r = [(v, n, Policy, RDeny)])
  end.

Definition env_ok (e : env) : Prop :=
  e_lock_ok e = true /\ e_clock_ok e = true /\ e_keys_ok e = true /\ e_root_delay_nonneg e = true.

(* guaranteed by the decoder: an NTPv3 packet has no extension fields, hence neither a
   cookie nor a failed authenticator *)
Definition req_ok (rq : request) : Prop :=
  r_ver rq = V3 -> r_parse rq <> PDecrypt /\ (r_parse rq = POk -> r_cookie rq = false).

Definition passes (e : env) : bool := negb (e_in_deny e) && e_in_allow e.

(* [respond] in three steps: what require-nts makes of the action, the answer that is built for it, and its
   serialisation into the caller's buffer *)
Definition after_require (cfg : config) (nts : bool) (action : response) (why : reason) : option (response * reason) :=
  match nts, c_require_nts cfg with
  | false, Some FIgnore => None
  | false, Some FDeny => Some (RDeny, Policy)
  | _, _ => Some (action, why)
  end.

Definition answer_for (e : env) (v : version) (cookie : bool) (action : response) : res answer :=
  match action with
  | RNak => match v with V3 => Panic panic_nts_v3 | _ => Ok ANak end
  | RDeny => if cookie then match v with V3 => Panic panic_nts_v3 | _ => Ok ADenyKiss end else Ok ADenyKiss
  | RProvideTime =>
    if cookie then
      match v with
      | V3 => Panic panic_nts_v3
      | _ => if negb (e_clock_ok e) then Panic panic_clock
             else if negb (e_keys_ok e) then Panic panic_keys
             else Ok ATime
      end
    else if negb (e_clock_ok e) then Panic panic_clock else Ok ATime
  | RIgnore => Panic panic_unreachable_ignore
  end.

Definition send (c : cache) (e : env) (v : Z) (nts : bool) (action : response) (why : reason) (a : answer) : res result :=
  if match a with ATime => e_buf_ge4 e && negb (e_root_delay_nonneg e) | _ => false end then Panic panic_root_delay
  else if e_ser_ok e then Ok {| o_cache := c; o_regs := [(v, nts, why, action)]; o_out := ORespond a |}
  else ignore_with c v nts InternalError.

Lemma respond_steps cfg c e rq action why cookie :
  respond cfg c e rq action why cookie =
  let nts := cookie || response_eqb action RNak in
  if negb (existsb (version_eqb (r_ver rq)) (c_accepted cfg)) then ignore_with c (version_u8 (r_ver rq)) false Policy
  else match after_require cfg nts action why with
       | None => ignore_with c (version_u8 (r_ver rq)) nts Policy
       | Some (action', why') =>
         if negb (e_lock_ok e) then Panic panic_lock_poisoned
         else do a <- answer_for e (r_ver rq) cookie action';
              send c e (version_u8 (r_ver rq)) nts action' why' a
       end.
Proof. reflexivity. Qed.

Lemma after_require_spec cfg nts action why :
  match after_require cfg nts action why with
  | None => nts = false /\ c_require_nts cfg = Some FIgnore
  | Some (a, w) => (a = action /\ w = why /\ (c_require_nts cfg = None \/ nts = true))
                   \/ (nts = false /\ c_require_nts cfg = Some FDeny /\ a = RDeny /\ w = Policy)
  end.
Proof. unfold after_require. destruct nts, (c_require_nts cfg) as [[|]|]; auto 6. Qed.

Lemma answer_for_spec e v cookie action :
  match answer_for e v cookie action with
  | Ok a => (action = RNak /\ a = ANak) \/ (action = RDeny /\ a = ADenyKiss) \/ (action = RProvideTime /\ a = ATime)
  | Err _ => False
  | Panic s => (s = panic_clock /\ e_clock_ok e = false) \/ (s = panic_keys /\ e_keys_ok e = false) \/
               (s = panic_nts_v3 /\ v = V3 /\ (cookie = true \/ action = RNak)) \/
               (s = panic_unreachable_ignore /\ action = RIgnore)
  end.
Proof.
  unfold answer_for.
  destruct action; [destruct v|destruct cookie, v| |destruct cookie, v, (e_clock_ok e) eqn:K, (e_keys_ok e) eqn:Y];
    cbn [negb]; auto 8.
Qed.

Lemma send_spec c e v nts action why a :
  match send c e v nts action why a with
  | Ok r => o_cache r = c /\
            (e_ser_ok e = true /\ o_regs r = [(v, nts, why, action)] /\ o_out r = ORespond a
             \/ o_regs r = [(v, nts, InternalError, RIgnore)] /\ o_out r = OIgnore)
  | Err _ => False
  | Panic s => s = panic_root_delay /\ e_root_delay_nonneg e = false
  end.
Proof.
  unfold send, ignore_with.
  destruct a, (e_buf_ge4 e), (e_root_delay_nonneg e) eqn:D, (e_ser_ok e) eqn:S; cbn; auto.
Qed.

Lemma respond_shape cfg c e rq action why cookie r :
  respond cfg c e rq action why cookie = Ok r ->
  o_cache r = c /\
  exists v n w a, o_regs r = [(v, n, w, a)] /\
    (o_out r = OIgnore /\ a = RIgnore /\
       (w = Policy /\ n = false \/ w = InternalError /\ n = (cookie || response_eqb action RNak))
     \/ (e_ser_ok e = true /\ n = (cookie || response_eqb action RNak) /\ v = version_u8 (r_ver rq) /\
         existsb (version_eqb (r_ver rq)) (c_accepted cfg) = true /\
         ((a = RProvideTime /\ o_out r = ORespond ATime /\ action = RProvideTime /\ w = why /\
            (c_require_nts cfg = None \/ n = true))
          \/ (a = RDeny /\ o_out r = ORespond ADenyKiss /\
               (action = RDeny /\ w = why \/ (n = false /\ c_require_nts cfg = Some FDeny /\ w = Policy)))
          \/ (a = RNak /\ o_out r = ORespond ANak /\ action = RNak /\ w = why)))).
Proof.
  rewrite respond_steps. cbv zeta. unfold ignore_with. intros H.
  destruct (existsb (version_eqb (r_ver rq)) (c_accepted cfg)) eqn:Eacc; cbn [negb] in H.
  2:{ injection H as <-. split; [reflexivity|]. do 4 eexists. split; [reflexivity|]. left. auto. }
  pose proof (after_require_spec cfg (cookie || response_eqb action RNak) action why) as A.
  destruct (after_require cfg _ action why) as [[a' w']|].
  2:{ injection H as <-. split; [reflexivity|]. do 4 eexists. split; [reflexivity|]. left. cbn. intuition. }
  destruct (e_lock_ok e); cbn [negb] in H; [|discriminate].
  pose proof (answer_for_spec e (r_ver rq) cookie a') as B.
  destruct (answer_for e (r_ver rq) cookie a') as [x| |]; cbn [res_bind] in H; try discriminate.
  pose proof (send_spec c e (version_u8 (r_ver rq)) (cookie || response_eqb action RNak) a' w' x) as S.
  rewrite H in S. destruct S as (Hc & [(Ser & Hr & Ho)|(Hr & Ho)]); (split; [exact Hc|]); do 4 eexists; (split; [exact Hr|]).
  - right. rewrite Ho. clear - A B Ser Eacc. intuition congruence.
  - left. auto.
Qed.

Lemma respond_require_ignore cfg c e rq action why cookie r :
  c_require_nts cfg = Some FIgnore -> cookie || response_eqb action RNak = false ->
  respond cfg c e rq action why cookie = Ok r -> o_out r = OIgnore.
Proof.
  rewrite respond_steps. cbv zeta. unfold after_require. intros Hr Hn H. rewrite Hn, Hr in H.
  destruct (existsb (version_eqb (r_ver rq)) (c_accepted cfg)); cbn in H; inversion H; reflexivity.
Qed.

Lemma respond_ok_or_panic cfg c e rq action why cookie :
  (exists r, respond cfg c e rq action why cookie = Ok r) \/
  exists s, respond cfg c e rq action why cookie = Panic s /\
    ((s = panic_lock_poisoned /\ e_lock_ok e = false) \/
     (s = panic_clock /\ e_clock_ok e = false) \/
     (s = panic_keys /\ e_keys_ok e = false) \/
     (s = panic_root_delay /\ e_root_delay_nonneg e = false) \/
     (s = panic_nts_v3 /\ r_ver rq = V3 /\ (cookie = true \/ action = RNak)) \/
     (s = panic_unreachable_ignore /\ action = RIgnore)).
Proof.
  rewrite respond_steps. cbv zeta. unfold ignore_with.
  destruct (existsb (version_eqb (r_ver rq)) (c_accepted cfg)); cbn [negb]; [|eauto].
  pose proof (after_require_spec cfg (cookie || response_eqb action RNak) action why) as A.
  destruct (after_require cfg _ action why) as [[a' w']|]; [|eauto].
  destruct (e_lock_ok e) eqn:L; cbn [negb]; [|eauto 8].
  pose proof (answer_for_spec e (r_ver rq) cookie a') as B.
  destruct (answer_for e (r_ver rq) cookie a') as [x| |s]; cbn [res_bind]; [|contradiction|].
  - pose proof (send_spec c e (version_u8 (r_ver rq)) (cookie || response_eqb action RNak) a' w' x) as S.
    destruct (send c e _ _ a' w' x) as [r| |s]; [eauto|contradiction|]. right. exists s. auto 6.
  - right. exists s. split; [reflexivity|].
    (* a DENY put in by require-nts comes without a cookie: whenever a builder stops, the action is the caller's *)
    destruct B as [B|[B|[(-> & V & B)|(-> & B)]]]; auto 6.
    + do 4 right. left. split; [reflexivity|]. split; [exact V|].
      destruct A as [(-> & _)|(N & _ & -> & _)]; [exact B|]. destruct B as [B|B]; [left; exact B|discriminate B].
    + do 5 right. split; [reflexivity|]. destruct A as [(-> & _)|(_ & _ & -> & _)]; [exact B|discriminate B].
Qed.

Lemma intended_action_spec h cfg c e :
  (e_in_deny e = true /\ intended_action h cfg c e = Ok (c, response_of_action (c_deny_action cfg), Policy))
  \/ (e_in_deny e = false /\ e_in_allow e = false /\
      intended_action h cfg c e = Ok (c, response_of_action (c_allow_action cfg), Policy))
  \/ (e_in_deny e = false /\ e_in_allow e = true /\
      exists c' b, is_allowed h c (e_addr e) (e_now e) (c_cutoff cfg) = Ok (c', b) /\ length c' = length c /\
        intended_action h cfg c e = Ok (c', if b then RProvideTime else RIgnore, if b then Policy else RateLimit)).
Proof.
  unfold intended_action.
  destruct (e_in_deny e); [left; auto|].
  destruct (e_in_allow e); cbn [negb]; [|right; left; auto].
  right; right. repeat split.
  destruct (is_allowed_total h c (e_addr e) (e_now e) (c_cutoff cfg)) as (c' & b & E & L).
  exists c', b. rewrite E. cbn [res_bind]. destruct b; auto.
Qed.

Lemma intended_action_total h cfg c e : exists c' a w, intended_action h cfg c e = Ok (c', a, w).
Proof.
  destruct (intended_action_spec h cfg c e) as [(_ & E)|[(_ & _ & E)|(_ & _ & c' & b & _ & _ & E)]];
    rewrite E; eauto.
Qed.

Lemma intended_never_nak h cfg c e c' a w : intended_action h cfg c e = Ok (c', a, w) -> a <> RNak.
Proof.
  intros H. destruct (intended_action_spec h cfg c e) as [(_ & E)|[(_ & _ & E)|(_ & _ & c1 & b & _ & _ & E)]];
    rewrite E in H; inversion H; subst.
  - destruct (c_deny_action cfg); discriminate.
  - destruct (c_allow_action cfg); discriminate.
  - destruct b; discriminate.
Qed.

(* the call of [respond] that [handle] makes for a client datagram, by the decoder's verdict: a decoded
   request goes on with the intended action; one whose authenticator failed gets the NAK, unless the
   intended action is Deny, which stands *)
Definition respond_call (rq : request) (act : response) (why : reason) (a0 : response) (w0 : reason) (ck : bool) : Prop :=
  (r_parse rq = POk /\ a0 = act /\ w0 = why /\ ck = r_cookie rq) \/
  (r_parse rq = PDecrypt /\ ck = false /\
   (act = RDeny /\ a0 = RDeny /\ w0 = why \/ act <> RDeny /\ a0 = RNak /\ w0 = InvalidCrypto)).

Lemma handle_cases h cfg c e rq :
  exists c' act why, intended_action h cfg c e = Ok (c', act, why) /\
    ((exists w, handle h cfg c e rq = Ok {| o_cache := c'; o_regs := [(r_fbv rq, false, w, RIgnore)]; o_out := OIgnore |} /\
        (act = RIgnore /\ w = why \/
         act <> RIgnore /\ w = ParseError /\ (r_parse rq = PErr \/ r_client rq = false)))
     \/ (act <> RIgnore /\ r_client rq = true /\ exists a0 w0 ck,
           respond_call rq act why a0 w0 ck /\ handle h cfg c e rq = respond cfg c' e rq a0 w0 ck)).
Proof.
  destruct (intended_action_total h cfg c e) as (c' & act & why & E). exists c', act, why. split; [exact E|].
  unfold handle, ignore_with, respond_call. rewrite E. cbn [res_bind].
  destruct act; cbn [response_eqb]; [| |left; eexists; split; [reflexivity|auto]|];
    destruct (r_parse rq), (r_client rq); cbn [negb];
    first [ left; eexists; split; [reflexivity|]; intuition congruence
          | right; split; [discriminate|]; split; [reflexivity|];
            do 3 eexists; refine (conj _ eq_refl); intuition congruence ].
Qed.

Lemma handle_one_registration h cfg c e rq r :
  handle h cfg c e rq = Ok r ->
  exists v n w a, o_regs r = [(v, n, w, a)] /\
    (a = RProvideTime <-> o_out r = ORespond ATime) /\
    (a = RDeny <-> o_out r = ORespond ADenyKiss) /\
    (a = RNak <-> o_out r = ORespond ANak) /\
    (a = RIgnore <-> o_out r = OIgnore).
Proof.
  intros H.
  destruct (handle_cases h cfg c e rq) as (c' & act & why & _ & [(w & E & _)|(_ & _ & a0 & w0 & ck & _ & E)]);
    rewrite E in H.
  - injection H as <-. do 4 eexists. split; [reflexivity|]. cbn. repeat split; intros; congruence.
  - destruct (respond_shape _ _ _ _ _ _ _ _ H) as (_ & v & n & w & a & Hr & S).
    exists v, n, w, a. split; [exact Hr|].
    destruct S as [(Ho & Ha & _)|(_ & _ & _ & _ & [(Ha & Ho & _)|[(Ha & Ho & _)|(Ha & Ho & _)]])];
      rewrite Ho, Ha; repeat split; intros; congruence.
Qed.

Definition with_allow (e : env) (b : bool) : env :=
  {| e_addr := e_addr e; e_in_deny := e_in_deny e; e_in_allow := b; e_now := e_now e;
     e_ser_ok := e_ser_ok e; e_buf_ge4 := e_buf_ge4 e; e_lock_ok := e_lock_ok e; e_clock_ok := e_clock_ok e;
     e_keys_ok := e_keys_ok e; e_root_delay_nonneg := e_root_delay_nonneg e |}.

Lemma action_outcome h cfg c e rq c' a w r :
  intended_action h cfg c e = Ok (c', response_of_action a, w) ->
  handle h cfg c e rq = Ok r ->
  o_cache r = c' /\
  match a with
  | FIgnore => o_out r = OIgnore /\ o_regs r = [(r_fbv rq, false, w, RIgnore)]
  | FDeny => o_out r = OIgnore \/ (o_out r = ORespond ADenyKiss /\ exists v n w', o_regs r = [(v, n, w', RDeny)] /\ (w' = w \/ w' = Policy))
  end.
Proof.
  intros Hi H. destruct (handle_cases h cfg c e rq) as (c1 & act & why & Hi' & D).
  rewrite Hi in Hi'. injection Hi' as ? ? ?. subst c1 act why.
  destruct D as [(w' & E & W)|(Hni & _ & a0 & w0 & ck & RC & E)]; rewrite E in H.
  - injection H as <-. split; [reflexivity|]. destruct a; cbn in W |- *; [|left; reflexivity].
    destruct W as [(_ & ->)|(N & _)]; [auto|congruence].
  - destruct a; cbn [response_of_action] in *; [congruence|].
    assert (a0 = RDeny /\ w0 = w) as (-> & ->) by (clear - RC; unfold respond_call in RC; intuition congruence).
    destruct (respond_shape _ _ _ _ _ _ _ _ H) as (Hc & v & n & w' & a & Hr & S). split; [exact Hc|].
    destruct S as [(Ho & _)|(_ & _ & _ & _ & [(_ & _ & N & _)|[(-> & Ho & W)|(_ & _ & N & _)]])]; try discriminate N.
    + left; exact Ho.
    + right. split; [exact Ho|]. exists v, n, w'. split; [exact Hr|]. intuition.
Qed.

Lemma listed h cfg c e rq c' a r :
  intended_action h cfg c e = Ok (c', response_of_action a, Policy) -> handle h cfg c e rq = Ok r ->
  o_cache r = c' /\ listed_outcome a rq r.
Proof.
  intros Hi H. destruct (action_outcome _ _ _ _ _ _ _ _ _ Hi H) as (Hc & G). split; [exact Hc|].
  destruct a; [exact G|]. destruct G as [G|(Ho & v & n & w' & Hr & W)]; [left; exact G|right].
  split; [exact Ho|]. exists v, n. destruct W; subst w'; exact Hr.
Qed.

Lemma unanswered h cfg c e rq r :
  (r_parse rq = PErr \/ r_client rq = false \/ existsb (version_eqb (r_ver rq)) (c_accepted cfg) = false) ->
  handle h cfg c e rq = Ok r -> o_out r = OIgnore.
Proof.
  intros Hyp H.
  destruct (handle_cases h cfg c e rq) as (c1 & act & why & _ & [(w & E & _)|(_ & C & a0 & w0 & ck & RC & E)]);
    rewrite E in H.
  - injection H as <-. reflexivity.
  - destruct (respond_shape _ _ _ _ _ _ _ _ H) as (_ & v & n & w & a & _ & [(Ho & _)|(_ & _ & _ & Acc & _)]); [exact Ho|].
    clear - RC Hyp Acc C. unfold respond_call in RC. intuition congruence.
Qed.

Definition rate_refused (r : result) : bool :=
  existsb (fun g : registration => let '(_, _, w, _) := g in is_rate w) (o_regs r).

Lemma handle_cache h cfg c e rq r c' act why :
  intended_action h cfg c e = Ok (c', act, why) -> handle h cfg c e rq = Ok r ->
  o_cache r = c' /\ (rate_refused r = true -> why = RateLimit).
Proof.
  intros Hi H. destruct (handle_cases h cfg c e rq) as (c1 & act1 & why1 & Hi' & D).
  rewrite Hi in Hi'. injection Hi' as ? ? ?. subst c1 act1 why1. unfold rate_refused.
  destruct D as [(w & E & W)|(_ & _ & a0 & w0 & ck & RC & E)]; rewrite E in H.
  - injection H as <-. split; [reflexivity|]. destruct W as [(_ & ->)|(_ & -> & _)]; [destruct why|]; cbn; congruence.
  - destruct (respond_shape _ _ _ _ _ _ _ _ H) as (Hc & v & n & w & a & -> & S). split; [exact Hc|].
    assert (Hw : w = Policy \/ w = InternalError \/ w = InvalidCrypto \/ w = why)
      by (clear - RC S; unfold respond_call in RC; intuition congruence).
    destruct Hw as [-> |[-> |[-> | ->]]]; [| | |destruct why]; cbn; congruence.
Qed.

Lemma cache_untouched h cfg c e rq r :
  passes e = false -> handle h cfg c e rq = Ok r -> o_cache r = c /\ rate_refused r = false.
Proof.
  intros Hp H. unfold passes in Hp.
  destruct (intended_action_spec h cfg c e) as [(_ & E)|[(_ & _ & E)|(Hd & Ha & _)]].
  3:{ rewrite Hd, Ha in Hp. discriminate. }
  all: destruct (handle_cache _ _ _ _ _ _ _ _ _ E H) as (Hc & Hr); split; [exact Hc|];
    destruct (rate_refused r); [discriminate (Hr eq_refl)|reflexivity].
Qed.

Lemma cache_consulted h cfg c e rq r :
  passes e = true -> handle h cfg c e rq = Ok r ->
  exists b, is_allowed h c (e_addr e) (e_now e) (c_cutoff cfg) = Ok (o_cache r, b)
            /\ b = negb (rate_refused r)
            /\ (b = false -> o_out r = OIgnore /\ o_regs r = [(r_fbv rq, false, RateLimit, RIgnore)]).
Proof.
  intros Hp H. unfold passes in Hp.
  destruct (intended_action_spec h cfg c e) as [(Hd & _)|[(Hd & Ha & _)|(_ & _ & c' & b & Hal & _ & E)]].
  1, 2: rewrite Hd, ?Ha in Hp; discriminate.
  destruct (handle_cache _ _ _ _ _ _ _ _ _ E H) as (Hc & Hr). exists b. rewrite Hc. split; [exact Hal|].
  destruct b.
  - destruct (rate_refused r); [discriminate (Hr eq_refl)|]. split; [reflexivity|discriminate].
  - destruct (action_outcome h cfg c e rq c' FIgnore RateLimit r E H) as (_ & Ho & Hg).
    unfold rate_refused. rewrite Hg. auto.
Qed.

Definition call_of (x : env * request) : Z * Z := (e_addr (fst x), e_now (fst x)).
Definition passing (l : list (env * request)) : list (env * request) := filter (fun x => passes (fst x)) l.

(* verdicts of the list-passing calls of a history, read off the results *)
Fixpoint passing_verdicts (l : list (env * request)) (rs : list result) : list bool :=
  match l, rs with
  | x :: l', r :: rs' =>
    if passes (fst x) then negb (rate_refused r) :: passing_verdicts l' rs' else passing_verdicts l' rs'
  | _, _ => []
  end.

Lemma handle_all_cons h cfg c e rq l c' rs :
  handle_all h cfg c ((e, rq) :: l) = Ok (c', rs) ->
  exists r rs', handle h cfg c e rq = Ok r /\ handle_all h cfg (o_cache r) l = Ok (c', rs') /\ rs = r :: rs'.
Proof.
  cbn [handle_all]. intros H. apply bind_ok in H. destruct H as (r & Hr & H).
  apply bind_ok in H. destruct H as ([c2 rs2] & Hl & H). injection H as <- <-. eauto.
Qed.

Lemma handle_all_length h cfg l : forall c c' rs, handle_all h cfg c l = Ok (c', rs) -> length rs = length l.
Proof.
  induction l as [|[e rq] l IH]; intros c c' rs H.
  - inversion H. reflexivity.
  - destruct (handle_all_cons _ _ _ _ _ _ _ _ H) as (r & rs2 & _ & Hr & ->). cbn [length]. f_equal. exact (IH _ _ _ Hr).
Qed.

Lemma position_history h cfg l : forall c c' rs,
  handle_all h cfg c l = Ok (c', rs) ->
  length rs = length l /\
  run_from h (c_cutoff cfg) c (map call_of (passing l)) = Ok (c', passing_verdicts l rs).
Proof.
  intros c c' rs H. split; [exact (handle_all_length _ _ _ _ _ _ H)|]. revert c c' rs H.
  induction l as [|[e rq] l IH]; intros c c' rs H.
  - inversion H; subst. reflexivity.
  - destruct (handle_all_cons _ _ _ _ _ _ _ _ H) as (r & rs2 & Hh & Hr & ->). specialize (IH _ _ _ Hr).
    unfold passing in *. cbn [filter fst passing_verdicts].
    destruct (passes e) eqn:Hp.
    + destruct (cache_consulted _ _ _ _ _ _ Hp Hh) as (b & Hal & Hb & _).
      cbn [map run_from call_of fst res_bind]. rewrite Hal. cbn [res_bind]. rewrite IH. cbn [res_bind].
      rewrite Hb. reflexivity.
    + destruct (cache_untouched _ _ _ _ _ _ Hp Hh) as (Hc & _). rewrite <- Hc. exact IH.
Qed.

Lemma handle_all_app h cfg l1 : forall l2 c c' rs,
  handle_all h cfg c (l1 ++ l2) = Ok (c', rs) ->
  exists c1 rs1 rs2, handle_all h cfg c l1 = Ok (c1, rs1) /\ handle_all h cfg c1 l2 = Ok (c', rs2) /\ rs = rs1 ++ rs2.
Proof.
  induction l1 as [|[e rq] l1 IH]; intros l2 c c' rs H; cbn [app] in H.
  - exists c, [], rs. auto.
  - destruct (handle_all_cons _ _ _ _ _ _ _ _ H) as (r & rs' & Hh & Hr & ->).
    destruct (IH _ _ _ _ Hr) as (c1 & rs1 & rs2 & H1 & H2 & ->).
    cbn [handle_all]. rewrite Hh. cbn [res_bind]. rewrite H1. cbn [res_bind fst snd].
    exists c1, (r :: rs1), rs2. auto.
Qed.

Definition reg_nts (g : registration) : bool := let '(_, n, _, _) := g in n.
Definition reg_reason (g : registration) : reason := let '(_, _, w, _) := g in w.
Definition reg_resp (g : registration) : response := let '(_, _, _, a) := g in a.

Definition p_all (g : registration) := true.
Definition p_accepted g := response_eqb (reg_resp g) RProvideTime.
Definition p_denied g := response_eqb (reg_resp g) RDeny.
Definition p_ignored g := response_eqb (reg_resp g) RIgnore && negb (is_rate (reg_reason g)).
Definition p_rate g := response_eqb (reg_resp g) RIgnore && is_rate (reg_reason g).
Definition p_nak g := response_eqb (reg_resp g) RNak.
Definition p_nts g := reg_nts g.
Definition p_nts_accepted g := reg_nts g && p_accepted g.
Definition p_nts_denied g := reg_nts g && p_denied g.
Definition p_nts_rate g := reg_nts g && p_rate g.

Definition count (p : registration -> bool) (l : list registration) : nat := length (filter p l).

Lemma iter_inc_swap k x : Nat.iter k inc (inc x) = inc (Nat.iter k inc x).
Proof.
  induction k as [|k IH]; [reflexivity|].
  change (inc (Nat.iter k inc (inc x)) = inc (inc (Nat.iter k inc x))). rewrite IH. reflexivity.
Qed.

Lemma iter_inc k x : 0 <= x < 2 ^ 64 -> Nat.iter k inc x = wrap 64 (x + Z.of_nat k).
Proof.
  intros Hx. unfold wrap. induction k as [|k IH].
  - cbn [Nat.iter]. rewrite Z.add_0_r, Z.mod_small; [reflexivity|exact Hx].
  - change (Nat.iter (S k) inc x) with (inc (Nat.iter k inc x)). rewrite IH. unfold inc, wrap. rewrite Zplus_mod_idemp_l. f_equal. lia.
Qed.

Lemma counter_counts (f : stats -> Z) (p : registration -> bool) :
  (forall s g, f (register s g) = if p g then inc (f s) else f s) -> f stats0 = 0 ->
  forall l, f (register_all stats0 l) = wrap 64 (Z.of_nat (count p l)).
Proof.
  intros Hstep H0 l. rewrite <- (Z.add_0_l (Z.of_nat _)), <- iter_inc by (split; [lia|reflexivity]). rewrite <- H0.
  unfold register_all, count. generalize stats0. induction l as [|g l IH]; intros s; cbn [fold_left filter]; [reflexivity|].
  rewrite IH, Hstep. destruct (p g); cbn [length]; [|reflexivity].
  rewrite iter_inc_swap. reflexivity.
Qed.

Lemma counters l :
  let s := register_all stats0 l in
  received s = wrap 64 (Z.of_nat (count p_all l)) /\
  accepted s = wrap 64 (Z.of_nat (count p_accepted l)) /\
  denied s = wrap 64 (Z.of_nat (count p_denied l)) /\
  ignored s = wrap 64 (Z.of_nat (count p_ignored l)) /\
  rate_limited s = wrap 64 (Z.of_nat (count p_rate l)) /\
  nts_nak s = wrap 64 (Z.of_nat (count p_nak l)) /\
  nts_received s = wrap 64 (Z.of_nat (count p_nts l)) /\
  nts_accepted s = wrap 64 (Z.of_nat (count p_nts_accepted l)) /\
  nts_denied s = wrap 64 (Z.of_nat (count p_nts_denied l)) /\
  nts_rate_limited s = wrap 64 (Z.of_nat (count p_nts_rate l)) /\
  send_errors s = 0.
Proof.
  cbv zeta. repeat split.
  1-10: apply counter_counts; [intros s [[[v n] w] a]; destruct n, a; first [reflexivity|destruct w; reflexivity]|reflexivity].
  (* `register` never touches send_errors: it counts the registrations of the empty class *)
  rewrite (counter_counts send_errors (fun _ => false)); [|intros s [[[v n] w] a]; destruct n; reflexivity|reflexivity].
  unfold count. induction l; [reflexivity|assumption].
Qed.

Lemma handle_all_each h cfg l : forall c c' rs,
  handle_all h cfg c l = Ok (c', rs) -> Forall (fun r => exists c0 e rq, handle h cfg c0 e rq = Ok r) rs.
Proof.
  induction l as [|[e rq] l IH]; intros c c' rs H.
  - inversion H; subst. constructor.
  - destruct (handle_all_cons _ _ _ _ _ _ _ _ H) as (r & rs2 & Hh & Hr & ->). constructor; [eauto|exact (IH _ _ _ Hr)].
Qed.

Definition out_is (o : output) (r : result) : bool :=
  match o, o_out r with
  | OIgnore, OIgnore => true
  | ORespond ATime, ORespond ATime => true
  | ORespond ADenyKiss, ORespond ADenyKiss => true
  | ORespond ANak, ORespond ANak => true
  | _, _ => false
  end.

Lemma handle_total h cfg c e rq :
  env_ok e -> req_ok rq -> exists r, handle h cfg c e rq = Ok r.
Proof.
  intros (Hl & Hk & Hy & Hrd) Hq.
  destruct (handle_cases h cfg c e rq) as (c' & act & why & Hi & [(w & E & _)|(Hni & _ & a0 & w0 & ck & RC & E)]);
    rewrite E; [eauto|].
  destruct (respond_ok_or_panic cfg c' e rq a0 w0 ck) as [G|(s & _ & G)]; [exact G|exfalso].
  pose proof (intended_never_nak _ _ _ _ _ _ _ Hi) as Hnn.
  destruct G as [(_ & G)|[(_ & G)|[(_ & G)|[(_ & G)|[(_ & V & G)|(_ & G)]]]]]; try congruence;
    unfold respond_call in RC; [destruct (Hq V) as (Hd & Hc)|]; intuition congruence.
Qed.

(* which panic, and why: the only reachable sites are the four environment sites and the
   NTPv3 one; the cache index and the `unreachable!()` of the Ignore arm are never reached *)
Lemma handle_panic_sites h cfg c e rq s :
  handle h cfg c e rq = Panic s ->
  (s = panic_lock_poisoned /\ e_lock_ok e = false) \/
  (s = panic_clock /\ e_clock_ok e = false) \/
  (s = panic_keys /\ e_keys_ok e = false) \/
  (s = panic_root_delay /\ e_root_delay_nonneg e = false) \/
  (s = panic_nts_v3 /\ r_ver rq = V3 /\ (r_parse rq = PDecrypt \/ (r_parse rq = POk /\ r_cookie rq = true))).
Proof.
  intros H.
  destruct (handle_cases h cfg c e rq) as (c' & act & why & Hi & [(w & E & _)|(Hni & _ & a0 & w0 & ck & RC & E)]);
    rewrite E in H; [discriminate|].
  destruct (respond_ok_or_panic cfg c' e rq a0 w0 ck) as [(r & R)|(s' & R & G)]; rewrite R in H; [discriminate|].
  injection H as ->. pose proof (intended_never_nak _ _ _ _ _ _ _ Hi) as Hnn.
  destruct G as [G|[G|[G|[G|[(-> & V & G)|(_ & G)]]]]]; auto 6; unfold respond_call in RC.
  - do 4 right. split; [reflexivity|]. split; [exact V|]. intuition congruence.
  - exfalso. intuition congruence.
Qed.

Lemma handle_all_total h cfg l : forall c,
  Forall (fun x => env_ok (fst x) /\ req_ok (snd x)) l ->
  exists c' rs, handle_all h cfg c l = Ok (c', rs) /\ length rs = length l.
Proof.
  induction l as [|[e rq] l IH]; intros c Hf; cbn [handle_all].
  - exists c, []. auto.
  - inversion Hf as [|x l' (He & Hq) Hf']; subst. cbn [fst snd] in *.
    destruct (handle_total h cfg c e rq He Hq) as (r & Hr). rewrite Hr. cbn [res_bind].
    destruct (IH (o_cache r) Hf') as (c' & rs & Hrs & Hl). rewrite Hrs. cbn [res_bind fst snd].
    exists c', (r :: rs). split; [reflexivity|]. cbn [length]. congruence.
Qed.
