(* C17, when the answer fits a request-sized buffer: what wf_request says, wire sizes of request fields, and
   [built_serialize_ok], which reduces "the answer is sent" to "its size before padding is at most the request's". *)
From V Require Import Model.Response Proofs.Response Gen.ConstResponse.

Definition wf_env (st : sstate) (recv now : list Z) : Prop :=
  len (s_rdelay_short st) = 4 /\ len (s_rdisp_short st) = 4 /\ len (s_refid st) = 4 /\
  len (s_rdelay_t32 st) = 4 /\ len (s_rdisp_t32 st) = 4 /\ len recv = 8 /\ len now = 8.

Lemma wf_request_facts q :
  wf_request q = true ->
  (q_version q = 3 \/ q_version q = 4 \/ q_version q = 5)
  /\ forallb (field_ok (q_version q =? 5)) (q_untrusted q) = true
  /\ forallb (field_ok (q_version q =? 5)) (q_auth q) = true
  /\ forallb (field_ok (q_version q =? 5)) (q_enc q) = true
  /\ forallb auth_ok (q_auths q) = true
  /\ 0 <= q_mac q /\ len (q_xmit q) = 8 /\ request_len q <= 65535
  /\ (q_version q = 3 ->
        q_untrusted q = [] /\ q_auth q = [] /\ q_auths q = [] /\ q_decrypt_failed q = false /\ q_cookie q = None)
  /\ (q_version q = 5 ->
        q_mac q = 0 /\ (q_decrypt_failed q = false -> has_draft (q_untrusted q ++ q_auth q) = true))
  /\ (q_decrypt_failed q = false -> forall alg, q_cookie q = Some alg ->
        1 <= len (q_auths q) /\
        sumZ (map (fun a => snd (fst a)) (q_auths q)) = fields_wire (q_enc q) + 16 * len (q_auths q)).
Proof.
  intros WF. unfold wf_request in WF. cbv zeta in WF.
  repeat (let W := fresh "W" in apply andb_prop in WF; destruct WF as [WF W]).
  (* the conjuncts of wf_request by what they are about *)
  rename WF into Wuntrusted, W10 into Wauth, W9 into Wenc, W8 into Wauths, W6 into Wmac, W3 into Wxmit,
         W2 into Wv3, W1 into Wv5, W0 into Wcookie, W into Wlen.
  split; [revert Wv3; clear; destruct (q_version q =? 3) eqn:E3; intros; lia|].
  do 4 (split; [assumption|]).
  split; [apply Z.leb_le, Wmac|]. split; [apply Z.eqb_eq, Wxmit|]. split; [apply Z.leb_le, Wlen|]. split; [|split].
  - intros V3. apply Z.eqb_eq in V3. rewrite V3 in Wv3. clear - Wv3.
    repeat (let X := fresh "X" in apply andb_prop in Wv3; destruct Wv3 as [Wv3 X]).
    destruct (q_untrusted q), (q_auth q), (q_auths q), (q_decrypt_failed q), (q_cookie q); try discriminate; auto.
  - intros V5. apply Z.eqb_eq in V5. rewrite V5 in Wv5. clear - Wv5.
    apply andb_prop in Wv5. destruct Wv5 as [Wv5 _]. apply andb_prop in Wv5. destruct Wv5 as [Wmac0 Wdraft].
    split; [apply Z.eqb_eq, Wmac0|]. intros HD. rewrite HD in Wdraft. exact Wdraft.
  - intros HD alg HC. rewrite HD, HC in Wcookie. clear - Wcookie.
    apply andb_prop in Wcookie. destruct Wcookie as [Wcookie _]. apply andb_prop in Wcookie. destruct Wcookie as [Wcookie _].
    apply andb_prop in Wcookie. destruct Wcookie as [Wsome Wsum].
    split; [|apply Z.eqb_eq, Wsum]. destruct (q_auths q); [discriminate Wsome|].
    rewrite len_cons. pose proof (len_nonneg l) as P. clear - P. lia.
Qed.

Lemma field_ok_fwire v5 f : field_ok v5 f = true -> 0 <= fwire f /\ fwire f mod 4 = 0.
Proof.
  destruct f; unfold field_ok, fwire; intros H; try (split; [|apply next4_mod]);
    try (pose proof (len_nonneg d)); try lia;
    match goal with |- 0 <= next4 ?x => pose proof (next4_ge x); lia end.
Qed.

Lemma fields_wire_cons f l : fields_wire (f :: l) = fwire f + fields_wire l.
Proof. reflexivity. Qed.
Lemma fields_wire_app a b : fields_wire (a ++ b) = fields_wire a + fields_wire b.
Proof. unfold fields_wire. rewrite map_app, sumZ_app. reflexivity. Qed.

Lemma fields_wire_ok v5 l : forallb (field_ok v5) l = true -> 0 <= fields_wire l /\ fields_wire l mod 4 = 0.
Proof.
  induction l as [|f r IH]; [cbn; lia|]. cbn [forallb]. intros H. apply andb_prop in H. destruct H as [H1 H2].
  rewrite fields_wire_cons. destruct (field_ok_fwire _ _ H1). destruct (IH H2). lia.
Qed.

Lemma auths_ok l : forallb auth_ok l = true -> 0 <= auths_wire l /\ auths_wire l mod 4 = 0.
Proof.
  induction l as [|[[n c] w] r IH]; [cbn; lia|]. cbn [forallb]. intros H. apply andb_prop in H. destruct H as [H1 H2].
  specialize (IH H2). unfold auth_ok in H1. unfold auths_wire in *. simpl map. simpl sumZ.
  pose proof (next4_ge n). lia.
Qed.

(* an authenticator with a nonce of at least 16 bytes pays for the answer's: 8 + 16 bytes and the ciphertext *)
Lemma auths_sum l :
  forallb auth_ok l = true -> existsb (fun a => fst (fst a) <? NONCE_LEN_256) l = false ->
  24 * len l + sumZ (map (fun a => snd (fst a)) l) <= auths_wire l.
Proof.
  induction l as [|[[n c] w] r IH]; [cbn; lia|]. cbn [forallb existsb]. intros H HE.
  apply andb_prop in H. destruct H as [H1 H2]. apply orb_false_elim in HE. destruct HE as [E1 E2].
  specialize (IH H2 E2). unfold auth_ok in H1. unfold auths_wire in *. simpl map. simpl sumZ. rewrite len_cons.
  cbn [fst snd] in E1. consts. pose proof (next4_ge n). lia.
Qed.

(* what the cookies and placeholders of a list that are long enough for a fresh cookie take once replaced *)
Definition slot_wire (fresh : Z) (l : list field) : Z :=
  sumZ (map (fun f => if big_slot fresh f then fresh + 4 else 0) l).

Lemma slot_wire_cons fresh f r :
  slot_wire fresh (f :: r) = (if big_slot fresh f then fresh + 4 else 0) + slot_wire fresh r.
Proof. reflexivity. Qed.

Lemma slot_wire_app fresh a b : slot_wire fresh (a ++ b) = slot_wire fresh a + slot_wire fresh b.
Proof. unfold slot_wire. rewrite map_app, sumZ_app. reflexivity. Qed.

Lemma slot_wire_filter fresh l : (fresh + 4) * len (filter (big_slot fresh) l) = slot_wire fresh l.
Proof.
  induction l as [|f r IH]; [cbn; lia|]. rewrite slot_wire_cons. cbn [filter].
  destruct (big_slot fresh f); rewrite ?len_cons; lia.
Qed.

Lemma slot_wire_nonneg fresh l : 0 <= fresh -> 0 <= slot_wire fresh l.
Proof.
  intros F. induction l as [|f r IH]; [cbn; lia|]. rewrite slot_wire_cons. destruct (big_slot fresh f); lia.
Qed.

Lemma slot_le v5 fresh l : forallb (field_ok v5) l = true -> slot_wire fresh l <= fields_wire l.
Proof.
  induction l as [|f r IH]; [cbn; lia|]. cbn [forallb]. intros H. apply andb_prop in H. destruct H as [H1 H2].
  specialize (IH H2). rewrite slot_wire_cons, fields_wire_cons. destruct (field_ok_fwire _ _ H1) as [P0 _].
  destruct f; cbn [big_slot]; try lia; unfold fwire in *; pose proof (next4_ge (4 + n)); destruct (fresh <=? n) eqn:E; lia.
Qed.

Lemma cookie_len_cases alg : cookie_len alg = 104 \/ cookie_len alg = 168.
Proof. unfold cookie_len. destruct (alg =? AEAD_ID_512); [right|left]; reflexivity. Qed.

Lemma esz_all_cookies fresh l :
  0 <= fresh -> fresh mod 4 = 0 -> Forall (fun f => f = FCookie fresh) l -> esz_list min_enc l = (fresh + 4) * len l.
Proof.
  intros F0 F4. induction l as [|f r IH]; [intros _; cbn [esz_list]; change (len (@nil field)) with 0; lia|]. intros HA. inversion HA; subst.
  cbn [esz_list]. rewrite len_cons, (IH H2). unfold esz, min_enc. consts.
  rewrite next4_id by lia. replace ((fresh + 4) * (1 + len r)) with ((fresh + 4) + (fresh + 4) * len r) by ring. lia.
Qed.

Lemma sent_cookies_cost tf k alg q :
  Forall encodable (sent_cookies tf k alg q) /\
  exists n, 0 <= n /\ esz_list min_enc (sent_cookies tf k alg q) = (cookie_len alg + 4) * n /\
    (cookie_len alg + 4) * n <= slot_wire (cookie_len alg) (q_auth q) + slot_wire (cookie_len alg) (q_enc q).
Proof.
  assert (B : len (sent_cookies tf k alg q) <= len (filter (big_slot (cookie_len alg)) (q_auth q ++ q_enc q))
              /\ Forall (fun f => f = FCookie (cookie_len alg)) (sent_cookies tf k alg q)).
  { unfold sent_cookies. destruct (is_nts_kind k && is_time_kind k); [apply fresh_cookies_bounds|].
    split; [apply len_nonneg|constructor]. }
  destruct B as (BL & BF). pose proof (cookie_len_cases alg) as FR. split.
  - eapply Forall_impl; [|exact BF]. intros f ->. unfold encodable. lia.
  - exists (len (sent_cookies tf k alg q)). split; [apply len_nonneg|]. split; [apply esz_all_cookies; [lia|lia|exact BF]|].
    rewrite <- slot_wire_app, <- slot_wire_filter. pose proof (len_nonneg (sent_cookies tf k alg q)). nia.
Qed.

Lemma echo_uid_encodable v5 l : forallb (field_ok v5) l = true -> Forall encodable (echo_uid l).
Proof.
  intros H. apply Forall_forall. intros f HF. apply echo_uid_In in HF. destruct HF as ((d & ->) & HI).
  rewrite forallb_forall in H. specialize (H _ HI). unfold field_ok in H. unfold encodable. lia.
Qed.

Lemma uid_cost v5 fresh minf l :
  forallb (field_ok v5) l = true -> short_uid minf (echo_uid l) = false ->
  esz_list minf (echo_uid l) + slot_wire fresh l <= fields_wire l.
Proof.
  induction l as [|f r IH]; [cbn; lia|]. cbn [forallb]. intros H HS. apply andb_prop in H. destruct H as [H1 H2].
  destruct (field_ok_fwire _ _ H1) as [P0 _]. rewrite fields_wire_cons, slot_wire_cons.
  unfold echo_uid in *. destruct f; cbn [filter is_uid big_slot] in *; try (specialize (IH H2 HS); lia).
  (* a cookie and a placeholder alike: a slot that is long enough makes room for a fresh cookie *)
  2, 3: specialize (IH H2 HS); unfold fwire in *; pose proof (next4_ge (4 + n)); destruct (fresh <=? n) eqn:E; lia.
  cbn [short_uid] in HS. apply orb_false_elim in HS. destruct HS as [S1 S2].
  specialize (IH H2 S2). cbn [esz_list]. unfold esz, fwire in *. replace (len d + 4) with (4 + len d) by lia. lia.
Qed.

Lemma len_truncate_ref recv : len recv = 8 -> len (truncate_ref recv) = 8.
Proof.
  intros H. unfold len in H.
  do 9 (destruct recv as [|? recv]; try (simpl in H; lia)). reflexivity.
Qed.

Lemma built_header_len tf k alg st q recv now mlen :
  wf_env st recv now -> len (q_xmit q) = 8 -> len (a_header (built tf k alg st q recv now mlen)) = 48.
Proof.
  intros [E1 [E2 [E3 [E4 [E5 [E6 E7]]]]]] EX. unfold built. cbn [a_header mk_answer].
  pose proof (len_truncate_ref recv E6) as ET.
  destruct (is_time_kind k); unfold time_header, kiss_header; destruct (q_version q =? 5).
  - lens. lia.
  - destruct ((q_version q =? 4) && q_upgrade q && match k with KTime => true | _ => false end);
      lens; [change (len (bytes_of_string UPGRADE_TIMESTAMP)) with 8|]; lia.
  - lens. lia.
  - lens.
    assert (len (bytes_of_string match k with KDeny | KNtsDeny => KISS_DENY | KRate | KNtsRate => KISS_RATE | _ => KISS_NTSN end) = 4)
      as -> by (destruct k; reflexivity).
    lia.
Qed.

Lemma echo_v5_encodable v5 flt l : forallb (field_ok v5) l = true -> Forall encodable (echo_v5 flt l).
Proof.
  induction l as [|f r IH]; [constructor|]. cbn [forallb]. intros H. apply andb_prop in H. destruct H as [H1 H2].
  specialize (IH H2). destruct f; cbn [echo_v5]; auto.
  - constructor; auto. unfold field_ok in H1. unfold encodable. lia.
  - destruct (refid_response flt plen off) as [x|] eqn:ER; auto.
    apply refid_response_spec in ER. destruct ER as [-> [R1 R2]]. constructor; auto.
    unfold field_ok in H1. unfold encodable.
    pose proof (len_firstn_le (Z.to_nat plen) (skipn (Z.to_nat off) flt)). lia.
Qed.

Lemma echoed_encodable v5 k st q l : forallb (field_ok v5) l = true -> Forall encodable (echoed k st q l).
Proof.
  intros H. unfold echoed. destruct (q_version q =? 3); [constructor|].
  destruct (q_version q =? 4); [exact (echo_uid_encodable _ _ H)|]. apply Forall_app. split.
  - destruct (is_time_kind k); [exact (echo_v5_encodable _ _ _ H)|exact (echo_uid_encodable _ _ H)].
  - constructor; [|constructor]. unfold encodable, draft_field. vm_compute. discriminate.
Qed.

Lemma esz_list_nonneg minf l : Forall encodable l -> 0 <= esz_list minf l.
Proof.
  induction l as [|f r IH]; [cbn; lia|]. intros H. inversion H; subst. specialize (IH H3). cbn [esz_list].
  assert (0 <= esz (minf (is_nil r)) f).
  { destruct f; unfold encodable in H2; try contradiction; unfold esz; try pose proof (len_nonneg d);
      match goal with |- 0 <= next4 ?x => pose proof (next4_ge x); lia end. }
  lia.
Qed.

Lemma built_serialize_ok tf k alg st q recv now :
  wf_request q = true -> wf_env st recv now -> q_version q <> 3 ->
  raw_size (built tf k alg st q recv now (request_len q)) <= request_len q ->
  exists w, serialize (built tf k alg st q recv now (request_len q)) (request_len q) = Ok w.
Proof.
  intros WF WE V3 HR. destruct (wf_request_facts q WF) as (HV & FU & FA & FE & FX & M0 & XM & RL & _ & H5 & _).
  pose proof (built_header_len tf k alg st q recv now (request_len q) WE XM) as HL.
  assert (FO : forallb (field_ok (q_version q =? 5)) (q_untrusted q ++ q_auth q) = true)
    by (rewrite forallb_app, FU, FA; reflexivity).
  destruct (sent_cookies_cost tf k alg q) as (EE & _).
  assert (EU : Forall encodable (a_untrusted (built tf k alg st q recv now (request_len q))))
    by (cbn; destruct (is_nts_kind k); [constructor|exact (echoed_encodable _ _ _ _ _ FO)]).
  assert (EA : Forall encodable (a_auth (built tf k alg st q recv now (request_len q))))
    by (cbn; destruct (is_nts_kind k); [exact (echoed_encodable _ _ _ _ _ FA)|constructor]).
  apply serialize_ok; try assumption.
  - unfold auth_present. cbn. unfold sent_cookies. destruct (is_nts_kind k); [reflexivity|discriminate].
  - intros E5 d Hd. assert (V5 : q_version q = 5) by (apply Z.eqb_eq; exact E5).
    assert (d = request_len q) as -> by (cbn in Hd; destruct (is_time_kind k); congruence).
    destruct (H5 V5) as (MAC & _).
    destruct (fields_wire_ok _ _ FU) as [U0 U4]. destruct (fields_wire_ok _ _ FA) as [A0 A4]. destruct (auths_ok _ FX) as [X0 X4].
    set (a := built tf k alg st q recv now (request_len q)) in *.
    pose proof (esz_list_nonneg min_auth _ EA). pose proof (esz_list_nonneg min_enc (a_enc a) EE).
    pose proof (esz_list_nonneg (min_untrusted (a_ver a =? 5)) _ EU).
    pose proof (esz_list_mod4 min_auth (a_auth a)).
    pose proof (esz_list_mod4 (min_untrusted (a_ver a =? 5)) (a_untrusted a)).
    pose proof (next4_mod (esz_list min_enc (a_enc a) + 16)). pose proof (next4_ge (esz_list min_enc (a_enc a) + 16)).
    (* the padding target is request_len q; it and the size before padding are multiples of four by the facts above,
       which are all that lia is left with *)
    split; [reflexivity|]. unfold raw_size. rewrite HL. clear HR HL WF FU FA FE FX FO EE EU EA H5.
    unfold request_len in *. consts. change (next4 16) with 16. destruct (auth_present a); lia.
Qed.

(* configuration, server state, clock reading and plain requests of the witnesses in Props/C17.v *)
Definition witness_cfg : config := {| c_intended := 3; c_require_nts := 0; c_accepted := [3; 4; 5] |}.
Definition witness_st : sstate :=
  {| s_stratum := 2; s_leap := 0; s_refid := [1;2;3;4]; s_precision := 238; s_rdelay_short := [0;0;0;0];
     s_rdisp_short := [0;0;0;2]; s_rdelay_t32 := [0;0;0;0]; s_rdisp_t32 := [0;0;0;0]; s_filter := [] |}.
Definition witness_t : list Z := [0;0;0;100;0;0;0;0].
Definition plain_req (ver : Z) (u : list field) (mac : Z) : request :=
  {| q_version := ver; q_mode := 3; q_poll := 6; q_xmit := [1;2;3;4;5;6;7;8]; q_upgrade := false;
     q_untrusted := u; q_auth := []; q_enc := []; q_mac := mac; q_cookie := None; q_decrypt_failed := false; q_auths := [] |}.
