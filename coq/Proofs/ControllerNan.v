(* The f64 side of the controller (C02) on Coq's primitive binary64 floats, through Flocq's PrimFloat <->
   BinarySingleNaN bridge.
   Slews: every slew started leaves |desired_freq| <= slew_maximum_frequency_offset (multiplication by
   signum(change) = +-1.0 is exact, the slew frequency min(slew_max, |change| / duration) is in [0, slew_max]).
   NaN: none is ever handed to set_frequency.  The clamp argument (1+f)(1+c)-1 is not NaN for a finite f > -1
   and a non-NaN c; every later f is a clamp output in [-M, M], M < 1; every c the controller forms is not NaN
   unless BOTH estimate - desired_freq and sqrt(p11) * steer_frequency_leftover overflow (inf - inf), which
   the hypothesis |estimate| + slew_max < inf excludes.  Without that hypothesis a history of finite inputs
   under a finite configuration with positive limits applies NaN: [nan_witness_cfg], [nan_witness_ops]
   (C02_no_nan_refuted). *)
From V Require Import Model.Controller Proofs.F64Clamp Proofs.Controller Proofs.ControllerFreq.
From Coq Require Import Reals Floats Lra.
From Flocq Require Import Core IEEE754.BinarySingleNaN IEEE754.PrimFloat Plus_error.
Import ListNotations.
Open Scope Z_scope.

(* binary64's precision and exponent bounds as the instances Flocq's lemmas look for *)
#[local] Existing Instance Hprec.
#[local] Existing Instance Hmax.

Notation B := (binary_float prec emax).
Notation NE := mode_NE.

Lemma fin_nn : forall x : B, is_finite x = true -> is_nan x = false.
Proof. intros [ | | | ]; cbn; congruence. Qed.

Lemma fins_fin : forall x : B, is_finite_strict x = true -> is_finite x = true.
Proof. intros [ | | | ]; cbn; congruence. Qed.

Lemma overflow_nn : forall (z : B) m s, B2SF z = binary_overflow prec emax m s -> is_nan z = false.
Proof.
  intros z m s H. rewrite <- is_nan_SF_B2SF, H. apply is_nan_binary_overflow.
Qed.

Lemma Bplus_ff_nn : forall x y : B, is_finite x = true -> is_finite y = true ->
  is_nan (Bplus NE x y) = false.
Proof.
  intros x y Fx Fy. generalize (Bplus_correct _ _ _ _ NE x y Fx Fy).
  destruct (Rlt_bool _ _).
  - intros (_ & F & _). apply fin_nn; auto.
  - intros (H & _). eapply overflow_nn; eauto.
Qed.

Lemma Bplus_nn : forall x y : B, is_nan x = false -> is_nan y = false ->
  (is_finite x = true \/ is_finite y = true) -> is_nan (Bplus NE x y) = false.
Proof.
  intros x y Nx Ny F.
  destruct (is_finite x) eqn:Fx, (is_finite y) eqn:Fy.
  - apply Bplus_ff_nn; auto.
  - destruct x, y; cbn in *; try discriminate; auto.
  - destruct x, y; cbn in *; try discriminate; auto.
  - destruct F; discriminate.
Qed.

(* x - y is x + (-y), also in the special cases *)
Lemma Bminus_Bplus : forall x y : B, Bminus NE x y = Bplus NE x (Bopp y).
Proof. intros [sx | sx | | sx mx ex Hx] [sy | sy | | sy my ey Hy]; reflexivity. Qed.

Lemma Bminus_ff_nn : forall x y : B, is_finite x = true -> is_finite y = true ->
  is_nan (Bminus NE x y) = false.
Proof. intros x y Fx Fy. rewrite Bminus_Bplus. apply Bplus_ff_nn; [| rewrite is_finite_Bopp]; assumption. Qed.

Lemma Bminus_nn : forall x y : B, is_nan x = false -> is_nan y = false ->
  (is_finite x = true \/ is_finite y = true) -> is_nan (Bminus NE x y) = false.
Proof.
  intros x y Nx Ny F. rewrite Bminus_Bplus. apply Bplus_nn; rewrite ?is_nan_Bopp, ?is_finite_Bopp; assumption.
Qed.

Lemma Bmult_ff_nn : forall x y : B, is_finite x = true -> is_finite y = true ->
  is_nan (Bmult NE x y) = false.
Proof.
  intros x y Fx Fy. generalize (Bmult_correct _ _ _ _ NE x y).
  destruct (Rlt_bool _ _).
  - intros (_ & F & _). apply fin_nn. rewrite F, Fx, Fy. reflexivity.
  - intros H. eapply overflow_nn; eauto.
Qed.

(* a finite non-zero factor never produces NaN from a non-NaN one *)
Lemma Bmult_nn_l : forall x y : B, is_finite_strict x = true -> is_nan y = false ->
  is_nan (Bmult NE x y) = false.
Proof.
  intros x y Fx Ny. destruct (is_finite y) eqn:Fy.
  - apply Bmult_ff_nn; auto. apply fins_fin; auto.
  - destruct y; try discriminate. destruct x; try discriminate. reflexivity.
Qed.

Lemma Bmult_nn_r : forall x y : B, is_nan x = false -> is_finite_strict y = true ->
  is_nan (Bmult NE x y) = false.
Proof.
  intros x y Nx Fy. destruct (is_finite x) eqn:Fx.
  - apply Bmult_ff_nn; auto. apply fins_fin; auto.
  - destruct x; try discriminate. destruct y; try discriminate. reflexivity.
Qed.

Notation fexp := (SpecFloat.fexp prec emax).
(* likewise for the exponent function of binary64 *)
#[local] Instance fexp_valid : Valid_exp fexp := fexp_correct prec emax _.
#[local] Instance fexp_mono : Monotone_exp fexp := fexp_monotone prec emax.
Notation rnd := (round radix2 fexp ZnearestE).

(* a finite sum is the rounding of the exact sum *)
Lemma Bplus_finite_R : forall x y : B, is_finite x = true -> is_finite y = true ->
  is_finite (Bplus NE x y) = true ->
  (B2R (Bplus NE x y) = rnd (B2R x + B2R y))%R.
Proof.
  intros x y Fx Fy F. generalize (Bplus_correct _ _ _ _ NE x y Fx Fy).
  destruct (Rlt_bool _ _).
  - intros (E & _). exact E.
  - intros (H & _). rewrite <- is_finite_SF_B2SF, H in F. discriminate.
Qed.

(* 1 + f for a finite f above -1 is finite and not zero *)
Lemma one_plus_strict : forall f : B, is_finite f = true -> (-1 < B2R f)%R ->
  is_finite_strict (Bplus NE Bone f) = true.
Proof.
  intros f Ff Hf.
  assert (F1 : is_finite (Bone : B) = true) by apply is_finite_Bone.
  generalize (Bplus_correct _ _ _ _ NE Bone f F1 Ff).
  rewrite Bone_correct. change (round_mode NE) with ZnearestE.
  (* no overflow: the rounding of 1 + f is no farther from 1 + f than f is, which is 1 away, and
     |f| <= 2^emax - 2^(emax - prec) *)
  assert (Hov : (Rabs (rnd (1 + B2R f)) < bpow radix2 emax)%R).
  { destruct (round_N_pt radix2 fexp (fun x => negb (Z.even x)) (1 + B2R f)) as [_ Hn].
    specialize (Hn (B2R f) (generic_format_B2R _ _ f)).
    pose proof (abs_B2R_le_emax_minus_prec prec emax _ f) as Hb.
    assert (H2 : (2 < bpow radix2 (emax - prec))%R).
    { apply Rlt_le_trans with (bpow radix2 2). cbn; lra. apply bpow_le. unfold emax, prec. lia. }
    fold ZnearestE in Hn.
    assert (H1 : (Rabs (B2R f - (1 + B2R f)) = 1)%R).
    { replace (B2R f - (1 + B2R f))%R with (-1)%R by ring. unfold Rabs; destruct Rcase_abs; lra. }
    rewrite H1 in Hn. clear H1.
    unfold Rabs in *. repeat destruct Rcase_abs; lra. }
  rewrite (Rlt_bool_true _ _ Hov).
  intros (E & F & _).
  apply is_finite_strict_B2R. rewrite E.
  apply round_plus_neq_0; auto with typeclass_instances.
  - rewrite <- (Bone_correct prec emax _ _). apply generic_format_B2R.
  - apply generic_format_B2R.
  - lra.
Qed.

(* no overflow of x - d when |x| + m is finite and |d| <= m *)
Lemma Bminus_finite_bound : forall x d m : B,
  is_finite x = true -> is_finite d = true -> is_finite m = true ->
  (Rabs (B2R d) <= B2R m)%R ->
  is_finite (Bplus NE (Babs x) m) = true ->
  is_finite (Bminus NE x d) = true.
Proof.
  intros x d m Fx Fd Fm Hd Hs.
  assert (Fa : is_finite (Babs x) = true) by (rewrite is_finite_Babs; auto).
  pose proof (Bplus_finite_R _ _ Fa Fm Hs) as E. rewrite B2R_Babs in E.
  pose proof (abs_B2R_lt_emax _ _ (Bplus NE (Babs x) m)) as Hlt. rewrite E in Hlt.
  generalize (Bminus_correct _ _ _ _ NE x d Fx Fd). change (round_mode NE) with ZnearestE.
  assert (Hov : (Rabs (rnd (B2R x - B2R d)) < bpow radix2 emax)%R).
  { rewrite <- round_NE_abs; auto with typeclass_instances.
    apply Rle_lt_trans with (2 := Hlt).
    apply Rle_trans with (rnd (Rabs (B2R x) + B2R m)).
    - apply round_le; auto with typeclass_instances.
      unfold Rabs in *; repeat destruct Rcase_abs; lra.
    - apply Rle_abs. }
  rewrite (Rlt_bool_true _ _ Hov). intros (_ & F & _). exact F.
Qed.

(* multiplication by +-1 is exact up to the sign: |x * y| = |x| for |y| = 1 *)
Lemma Babs_mult_unit : forall x y : B, is_finite_strict y = true -> (Rabs (B2R y) = 1)%R ->
  Babs (Bmult NE x y) = Babs x.
Proof.
  intros x y Fy Hy.
  destruct x as [sx | sx | | sx mx ex Hx] eqn:Ex;
    try (destruct y; try discriminate; reflexivity).
  rewrite <- Ex.
  assert (Fx : is_finite x = true) by (subst; reflexivity).
  generalize (Bmult_correct _ _ _ _ NE x y). change (round_mode NE) with ZnearestE.
  assert (G : generic_format radix2 fexp (B2R x * B2R y)).
  { revert Hy. unfold Rabs. destruct Rcase_abs; intro Hy.
    - replace (B2R x * B2R y)%R with (- B2R x)%R by (replace (B2R y) with (-1)%R by lra; ring).
      apply generic_format_opp. apply generic_format_B2R.
    - rewrite Hy, Rmult_1_r. apply generic_format_B2R. }
  rewrite (round_generic _ _ _ _ G).
  assert (Hov : (Rabs (B2R x * B2R y) < bpow radix2 emax)%R).
  { rewrite Rabs_mult, Hy, Rmult_1_r. apply abs_B2R_lt_emax. }
  rewrite (Rlt_bool_true _ _ Hov). intros (E & F & _).
  rewrite Fx, (fins_fin _ Fy) in F. cbn in F.
  apply B2R_Bsign_inj.
  - rewrite is_finite_Babs; auto.
  - rewrite is_finite_Babs; auto.
  - rewrite !B2R_Babs, E, Rabs_mult, Hy, Rmult_1_r. reflexivity.
  - rewrite !Bsign_Babs. reflexivity.
Qed.

(* the sign of |a| / d for d > 0 (d = +inf included): NaN or sign bit clear *)
Lemma Bdiv_abs_sign : forall a d : B, Bsign d = false -> is_nan d = false ->
  is_finite_strict d = true \/ is_finite d = false ->
  is_nan (Bdiv NE (Babs a) d) = true \/ Bsign (Bdiv NE (Babs a) d) = false.
Proof.
  intros a d Sd Nd Zd.
  destruct d as [sd | sd | | sd md ed Hd] eqn:Ed; cbn in Sd, Nd; try discriminate.
  - destruct Zd; discriminate.
  - subst sd. destruct a; cbn; auto.
  - subst sd. clear Ed Zd. set (d0 := B754_finite false md ed Hd).
    assert (Rd : B2R d0 <> 0%R) by (apply F2R_neq_0; discriminate).
    generalize (Bdiv_correct _ _ _ _ NE (Babs a) d0 Rd).
    destruct (Rlt_bool _ _).
    + intros (_ & _ & S). destruct (is_nan (Bdiv NE (Babs a) d0)) eqn:N; auto.
      right. rewrite (S eq_refl), Bsign_Babs. reflexivity.
    + intro H. right. rewrite Bsign_Babs in H. cbn in H.
      destruct (Bdiv NE (Babs a) d0); cbn in H; try discriminate; inversion H; reflexivity.
Qed.

(* `x.is_finite()` as a hardware comparison: |x| < inf *)
Definition f_finite (x : PrimFloat.float) : bool := PrimFloat.ltb (PrimFloat.abs x) infinity.

Lemma Prim2B_one : Prim2B 1%float = Bone.
Proof. change 1%float with one. rewrite one_equiv. apply Prim2B_B2Prim. Qed.
Lemma Prim2B_mone : Prim2B (-1)%float = Bopp Bone.
Proof. change (-1)%float with (- one)%float. rewrite opp_equiv, one_equiv, Prim2B_B2Prim. reflexivity. Qed.
Lemma Prim2B_zero : Prim2B 0%float = B754_zero false.
Proof. change 0%float with zero. rewrite zero_equiv. apply Prim2B_B2Prim. Qed.

Lemma f_finite_spec : forall x, f_finite x = is_finite (Prim2B x).
Proof.
  intro x. unfold f_finite. rewrite ltb_equiv, abs_equiv, infinity_equiv, Prim2B_B2Prim.
  destruct (Prim2B x) as [s | s | | s m e H]; reflexivity.
Qed.

Lemma ltb_R : forall x y, is_finite (Prim2B x) = true -> is_finite (Prim2B y) = true ->
  PrimFloat.ltb x y = Rlt_bool (B2R (Prim2B x)) (B2R (Prim2B y)).
Proof. intros. rewrite ltb_equiv. apply Bltb_correct; auto. Qed.
Lemma leb_R : forall x y, is_finite (Prim2B x) = true -> is_finite (Prim2B y) = true ->
  PrimFloat.leb x y = Rle_bool (B2R (Prim2B x)) (B2R (Prim2B y)).
Proof. intros. rewrite leb_equiv. apply Bleb_correct; auto. Qed.

Lemma B2R_Bone : B2R (Bone : B) = 1%R.
Proof. apply Bone_correct. Qed.

(* the clamp argument (1+f)(1+c)-1 is not NaN for a finite f above -1 and a non-NaN c *)
Lemma arg_nn : forall f c,
  f_finite f = true -> PrimFloat.ltb (-1)%float f = true -> f_is_nan c = false ->
  f_is_nan (steer_arg f c) = false.
Proof.
  intros f c Ff Hf Nc. rewrite f_finite_spec in Ff. rewrite f_is_nan_Prim2B in Nc. unfold steer_arg, fone.
  rewrite ltb_R in Hf; [| rewrite Prim2B_mone, is_finite_Bopp; apply is_finite_Bone | exact Ff].
  rewrite Prim2B_mone, B2R_Bopp, B2R_Bone in Hf.
  assert (Hr : (-1 < B2R (Prim2B f))%R).
  { revert Hf. case Rlt_bool_spec; [intros; lra | discriminate]. }
  rewrite f_is_nan_Prim2B, sub_equiv, mul_equiv, !add_equiv, Prim2B_one.
  apply Bminus_nn.
  - apply Bmult_nn_l.
    + apply one_plus_strict; auto.
    + apply Bplus_nn; [apply is_nan_Bone | exact Nc | left; apply is_finite_Bone].
  - apply is_nan_Bone.
  - right. apply is_finite_Bone.
Qed.

Lemma Bltb_inf_l : forall y : B, Bltb (B754_infinity false) y = false.
Proof. intro y. unfold Bltb, SFltb. cbn. destruct (B2SF y) as [ | [|] | | ]; reflexivity. Qed.

(* a clamp output under 0 < M < 1 is finite and above -1 *)
Lemma clamped_freq_ok : forall M r,
  PrimFloat.ltb 0%float M = true -> PrimFloat.ltb M 1%float = true ->
  PrimFloat.leb (PrimFloat.opp M) r = true -> PrimFloat.leb r M = true ->
  f_finite r = true /\ PrimFloat.ltb (-1)%float r = true.
Proof.
  intros M r H0 H1 Hl Hu.
  (* M is finite since 0 < M < 1, and r since it lies between -M and M; on finite values the
     comparisons are those of the reals *)
  assert (Fm : is_finite (Prim2B M) = true).
  { rewrite ltb_equiv in H0, H1. rewrite Prim2B_zero in H0.
    destruct (Prim2B M) as [ | [|] | | ]; try reflexivity; try (cbn in H0; discriminate).
    all: try (rewrite Bltb_inf_l in H1; discriminate). }
  assert (Fr : is_finite (Prim2B r) = true).
  { rewrite leb_equiv in Hl, Hu. rewrite opp_equiv in Hl.
    destruct (Prim2B M) as [ | | | ]; try discriminate;
      destruct (Prim2B r) as [ | [|] | | ]; try reflexivity; cbn in Hl, Hu; discriminate. }
  assert (F1 : is_finite (Prim2B 1%float) = true) by (rewrite Prim2B_one; apply is_finite_Bone).
  assert (Fo : is_finite (Prim2B (- M)%float) = true) by (rewrite opp_equiv, is_finite_Bopp; auto).
  rewrite ltb_R in H1 by auto. rewrite leb_R in Hl by auto.
  rewrite opp_equiv, B2R_Bopp in Hl. rewrite Prim2B_one, B2R_Bone in H1.
  split; [rewrite f_finite_spec; exact Fr |].
  rewrite ltb_R; [| rewrite Prim2B_mone, is_finite_Bopp; apply is_finite_Bone | exact Fr].
  rewrite Prim2B_mone, B2R_Bopp, B2R_Bone. apply Rlt_bool_true.
  revert H1 Hl. case Rlt_bool_spec; [| discriminate]. case Rle_bool_spec; [| discriminate].
  intros. lra.
Qed.

Lemma abs_pos_id : forall q, f_is_nan q = false -> Bsign (Prim2B q) = false -> PrimFloat.abs q = q.
Proof.
  intros q N S. apply Prim2B_inj. rewrite abs_equiv.
  destruct (Prim2B q); cbn in *; subst; reflexivity.
Qed.

Lemma abs_self_le : forall x, PrimFloat.leb 0%float x = true -> PrimFloat.leb (PrimFloat.abs x) x = true.
Proof.
  intros x H. rewrite leb_equiv in *. rewrite abs_equiv. rewrite Prim2B_zero in H.
  destruct (Prim2B x) as [[|] | [|] | | [|] m e Hb]; try (cbn in H; discriminate); try reflexivity.
  cbn [Babs]. rewrite Bleb_correct by reflexivity. apply Rle_bool_true, Rle_refl.
Qed.

(* the slew frequency min(slew_max, |change| / duration) lies in [-slew_max, slew_max] -- in fact in
   [0, slew_max] -- as soon as 0 <= slew_max and 0 < duration (+inf allowed for both) *)
Lemma slew_freq_abs : forall c ch,
  PrimFloat.leb 0%float (c_slew_max c) = true -> PrimFloat.ltb 0%float (c_slew_min_dur c) = true ->
  PrimFloat.leb (PrimFloat.abs (slew_freq c ch)) (c_slew_max c) = true.
Proof.
  intros c ch Hs Hd. unfold slew_freq, f_min.
  destruct (leb_true_notnan _ _ Hs) as [_ Ns]. change (f_is_nan (c_slew_max c) = false) in Ns. rewrite Ns.
  set (q := PrimFloat.div (PrimFloat.abs ch) (c_slew_min_dur c)).
  destruct (f_is_nan q) eqn:Nq; [apply abs_self_le; auto |].
  destruct (PrimFloat.ltb (c_slew_max c) q) eqn:L; [apply abs_self_le; auto |].
  rewrite abs_pos_id; auto.
  - apply ltb_false_leb; auto.
  - assert (D : is_nan (Prim2B q) = true \/ Bsign (Prim2B q) = false).
    { subst q. rewrite div_equiv, abs_equiv. rewrite ltb_equiv, Prim2B_zero in Hd.
      apply Bdiv_abs_sign;
        destruct (Prim2B (c_slew_min_dur c)) as [[|] | [|] | | [|] m e Hb]; cbn in Hd; try discriminate; auto. }
    destruct D as [D | D]; auto. rewrite <- f_is_nan_Prim2B in D. congruence.
Qed.

(* signum of a number is +-1.0 *)
Lemma signum_unit : forall x, f_is_nan x = false ->
  is_finite_strict (Prim2B (f_signum x)) = true /\ (Rabs (B2R (Prim2B (f_signum x))) = 1)%R.
Proof.
  intros x N. unfold f_signum. rewrite N.
  destruct (get_sign x); rewrite ?Prim2B_mone, ?Prim2B_one, ?is_finite_strict_Bopp, ?B2R_Bopp, ?Rabs_Ropp, B2R_Bone;
    split; auto using is_finite_strict_Bone, Rabs_R1.
Qed.

(* -freq * signum(change) has the magnitude of freq: multiplying by +-1.0 is exact *)
Lemma desired_abs : forall fr ch, f_is_nan ch = false ->
  PrimFloat.abs (PrimFloat.mul (PrimFloat.opp fr) (f_signum ch)) = PrimFloat.abs fr.
Proof.
  intros fr ch N. destruct (signum_unit ch N) as [F U]. apply Prim2B_inj.
  rewrite !abs_equiv, mul_equiv, opp_equiv, Babs_mult_unit by assumption. apply Babs_Bopp.
Qed.

Lemma abs_le_finite : forall d m, f_finite m = true -> PrimFloat.leb (PrimFloat.abs d) m = true ->
  f_finite d = true /\ (Rabs (B2R (Prim2B d)) <= B2R (Prim2B m))%R.
Proof.
  intros d m Fm H. rewrite f_finite_spec in *.
  assert (Fd : is_finite (Prim2B d) = true).
  { rewrite leb_equiv, abs_equiv in H.
    destruct (Prim2B m) as [ | | | ]; try discriminate;
      destruct (Prim2B d) as [ | [|] | | ]; try reflexivity; cbn in H; discriminate. }
  split; auto.
  rewrite leb_R in H; [| rewrite abs_equiv, is_finite_Babs; auto | auto].
  rewrite abs_equiv, B2R_Babs in H. revert H. case Rle_bool_spec; [auto | discriminate].
Qed.

(* desired_freq - new_freq + freq_delta is not NaN when the three are finite *)
Lemma change_nn : forall d nf fd, f_finite d = true -> f_finite nf = true -> f_finite fd = true ->
  f_is_nan (PrimFloat.add (PrimFloat.sub d nf) fd) = false.
Proof.
  intros d nf fd Fd Fn Ff. rewrite f_finite_spec in *.
  rewrite f_is_nan_Prim2B, add_equiv, sub_equiv.
  apply Bplus_nn; [apply Bminus_ff_nn; auto | apply fin_nn; auto | right; auto].
Qed.

(* estimate - desired_freq does not overflow when |estimate| + slew_max does not *)
Lemma delta_finite : forall ef d sm,
  f_finite (PrimFloat.add (PrimFloat.abs ef) sm) = true -> f_finite sm = true ->
  PrimFloat.leb (PrimFloat.abs d) sm = true ->
  f_finite (PrimFloat.sub ef d) = true.
Proof.
  intros ef d sm Hs Fs Hd.
  destruct (abs_le_finite _ _ Fs Hd) as [Fd Rd].
  rewrite f_finite_spec in *. rewrite add_equiv, abs_equiv in Hs. rewrite sub_equiv.
  assert (Fe : is_finite (Prim2B ef) = true).
  { destruct (Prim2B ef) as [ | | | ]; try reflexivity;
      destruct (Prim2B sm) as [ | | | ]; try discriminate; cbn in Hs; discriminate. }
  apply Bminus_finite_bound with (m := Prim2B sm); auto.
Qed.

(* the frequency request of update_clock, delta - (sqrt(p11) * leftover) * signum(delta), is a number *)
Lemma upd_change_nn : forall c s e,
  f_finite (upd_fdl s e) = true -> f_finite (e_p11 e) = true -> f_finite (c_freq_left c) = true ->
  upd_freq_due c s e = true -> f_is_nan (upd_change c s e) = false.
Proof.
  intros c s e Ff Fp Fl Hlt. unfold upd_freq_due in Hlt. unfold upd_change.
  set (fdl := upd_fdl s e) in *. set (p11 := e_p11 e) in *. rewrite f_finite_spec in *.
  (* the test passed, so sqrt(p11) * threshold is a number, and sqrt(p11) is finite *)
  assert (Nm : f_is_nan (PrimFloat.mul (PrimFloat.sqrt p11) (c_freq_thr c)) = false).
  { destruct (f_is_nan _) eqn:N; auto. rewrite (ltb_nan_l _ _ N) in Hlt. discriminate. }
  rewrite f_is_nan_Prim2B, mul_equiv, sqrt_equiv in Nm.
  assert (Fu : is_finite (Bsqrt NE (Prim2B p11)) = true).
  { destruct (Bsqrt_correct _ _ _ _ NE (Prim2B p11)) as (_ & F & _). rewrite F.
    destruct (Prim2B p11) as [ | | | [|] m e0 Hb]; try discriminate; try reflexivity.
    all: try (cbn in Nm; discriminate). }
  assert (Nf : f_is_nan fdl = false) by (rewrite f_is_nan_Prim2B; apply fin_nn; auto).
  rewrite f_is_nan_Prim2B, sub_equiv, !mul_equiv, sqrt_equiv.
  apply Bminus_nn; [apply fin_nn; auto | | left; auto].
  apply Bmult_nn_r; [apply Bmult_ff_nn; auto | apply signum_unit, Nf].
Qed.

(* the running slew stays within the configured maximum *)
Definition slew_ok (c : cfg) (s : st) : Prop :=
  PrimFloat.leb (PrimFloat.abs (desired_freq s)) (c_slew_max c) = true.

(* the frequency in force is finite and above -1 (a clock never runs backwards) *)
Definition freq_ok (s : st) : Prop :=
  f_finite (freq_offset s) = true /\ PrimFloat.ltb (-1)%float (freq_offset s) = true.

(* positive slew limits: 0 <= slew_max (+inf allowed), 0 < slew_minimum_duration (+inf allowed) *)
Definition slew_cfg (c : cfg) : Prop :=
  PrimFloat.leb 0%float (c_slew_max c) = true /\ PrimFloat.ltb 0%float (c_slew_min_dur c) = true.

(* what the NaN-freeness needs of the configuration *)
Definition nan_cfg (c : cfg) : Prop :=
  PrimFloat.ltb 0%float (c_max_freq c) = true /\ PrimFloat.ltb (c_max_freq c) 1%float = true /\
  slew_cfg c /\ f_finite (c_slew_max c) = true /\ f_finite (c_freq_left c) = true.

(* ... and of the inputs *)
Definition op_ok (c : cfg) (o : op) : Prop :=
  match o with
  | Update None _ => True
  | Update (Some e) _ =>
      f_finite (e_p11 e) = true /\
      f_finite (PrimFloat.add (PrimFloat.abs (e_freq e)) (c_slew_max c)) = true
  | TimeUpdate => True
  | SteerOffset _ fd => f_finite fd = true
  | SteerFreq ch => f_is_nan ch = false
  end.

(* a slew asks for a desired_freq within the limit, and only for a change that is a number *)
Lemma slew_request_ok : forall c s ch fd d x,
  slew_cfg c -> slew_request c s ch fd d x ->
  f_is_nan ch = false /\ PrimFloat.leb (PrimFloat.abs d) (c_slew_max c) = true.
Proof.
  intros c s ch fd d x [Hs Hd] (_ & [u D] & -> & _).
  pose proof (duration_ok_nonnan _ _ _ D) as N. split; [exact N |].
  rewrite desired_abs by exact N. apply slew_freq_abs; auto.
Qed.

Lemma slew_started_bound : forall ar c s ch fd cs s',
  slew_cfg c ->
  PrimFloat.ltb (c_step_threshold c) (PrimFloat.abs ch) = false ->
  steer_offset ar c s ch fd = (cs, Ok s') ->
  slew_ok c s'.
Proof.
  intros ar c s ch fd cs s' Hc Hlt H.
  destruct (steer_offset_slew _ _ _ _ _ _ _ Hlt H) as (x & Hq).
  apply (slew_request_ok _ _ _ _ _ _ Hc Hq).
Qed.

Lemma step_slew_ok : forall ar c s o cs s',
  slew_cfg c -> slew_ok c s -> step ar c s o = (cs, Ok s') -> slew_ok c s'.
Proof.
  intros ar c s o cs s' Hc Hs H. apply step_shape in H. unfold slew_ok in *.
  inversion H as [r0 N | s1 A | ch s1 s2 Hk A | d x nf s1 HR Hx A]; subst.
  - destruct (N s' eq_refl).
  - destruct A as (_ & _ & -> & _). exact Hs.
  - destruct A as (_ & _ & -> & _). exact Hs.
  - destruct A as (_ & _ & -> & _). cbn [desired_freq set_freq_offset set_desired].
    destruct o as [[e |] l | | ch fd | ch]; cbn [request] in HR.
    + destruct HR as [[ch Hq] | (-> & _)]; [apply (slew_request_ok _ _ _ _ _ _ Hc Hq) | exact Hs].
    + destruct HR.
    + (* time_update: desired_freq becomes 0, and |0| <= slew_max is 0 <= slew_max *)
      destruct HR as [-> _]. apply Hc.
    + apply (slew_request_ok _ _ _ _ _ _ Hc HR).
    + destruct HR as [-> _]. exact Hs.
Qed.

(* what one operation must establish: the frequencies it applies are numbers, and the frequency in
   force stays finite and above -1 *)
Definition nan_effect (cs : list call) (r : res st) : Prop :=
  Forall (fun f => f_is_nan f = false) (freqs_of cs) /\ (forall s', r = Ok s' -> freq_ok s').

Lemma step_nonan : forall ar c s o cs r,
  nan_cfg c -> freq_ok s -> slew_ok c s -> op_ok c o ->
  step ar c s o = (cs, r) -> nan_effect cs r.
Proof.
  intros ar c s o cs r Hc Hf Hs Ho H.
  pose proof Hc as (M0 & M1 & Hsc & Fs & Fl). apply step_shape in H. unfold nan_effect.
  inversion H as [r0 N Es Ef Er | s' A Es Ef Er | ch s1 s' Hk A Es Ef Er | d x nf s' HR Hx A Es Ef Er];
    subst.
  - split; [constructor | intros s' E; destruct (N s' E)].
  - split; [constructor |]. intros ? [= <-]. unfold freq_ok. destruct A as (_ & -> & _). exact Hf.
  - split; [constructor |]. intros ? [= <-]. unfold freq_ok. destruct A as (_ & -> & _). exact Hf.
  - (* the change handed to steer_frequency is a number, whatever the operation *)
    assert (Fd : f_finite (desired_freq s) = true) by apply (abs_le_finite _ (c_slew_max c) Fs Hs).
    assert (Q : forall ch fd, f_finite fd = true -> slew_request c s ch fd d x -> f_is_nan x = false).
    { intros ch fd Ffd Hq. destruct (slew_request_ok _ _ _ _ _ _ Hsc Hq) as [_ Hd].
      destruct Hq as (_ & _ & _ & ->). apply change_nn; auto.
      apply (abs_le_finite _ (c_slew_max c) Fs Hd). }
    assert (Nx : f_is_nan x = false).
    { destruct o as [[e |] l | | ch fd | ch]; cbn [request op_ok] in HR, Ho.
      - destruct Ho as [Fp Fe].
        assert (Fdl : f_finite (upd_fdl s e) = true) by (unfold upd_fdl; eapply delta_finite; eauto).
        destruct HR as [[ch Hq] | (_ & -> & Hlt)];
          [exact (Q ch _ Fdl Hq) | exact (upd_change_nn c s e Fdl Fp Fl Hlt)].
      - destruct HR.
      - destruct HR as [-> ->]. apply change_nn; [exact Fd | reflexivity | reflexivity].
      - exact (Q ch fd Ho HR).
      - destruct HR as [_ ->]. exact Ho. }
    destruct Hf as [Ff Hf1]. destruct (clamp_range _ _ _ _ Hx) as [[N _] | (_ & A1 & B1)].
    + rewrite (arg_nn _ _ Ff Hf1 Nx) in N. discriminate.
    + split; [repeat constructor; apply (leb_true_notnan _ _ B1) |].
      intros ? [= <-]. unfold freq_ok. destruct A as (_ & -> & _). exact (clamped_freq_ok _ _ M0 M1 A1 B1).
Qed.

(* f is a number within +-M: what C02_no_nan says of every applied frequency *)
Definition freq_within (c : cfg) (f : PrimFloat.float) : Prop :=
  f_is_nan f = false /\
  PrimFloat.leb (PrimFloat.opp (c_max_freq c)) f = true /\ PrimFloat.leb f (c_max_freq c) = true.

Definition cfg_floats (c : cfg) : list PrimFloat.float :=
  [c_step_threshold c; c_slew_max c; c_slew_min_dur c; c_max_freq c; c_off_thr c; c_off_left c;
   c_freq_thr c; c_freq_left c].
Definition op_floats (o : op) : list PrimFloat.float :=
  match o with
  | Update None _ => []
  | Update (Some e) _ => [e_off e; e_freq e; e_p00 e; e_p11 e]
  | TimeUpdate => []
  | SteerOffset a b => [a; b]
  | SteerFreq a => [a]
  end.

Definition nan_witness_cfg : cfg :=
  {| c_startup := no_thr; c_single := no_thr; c_acc := None;
     c_step_threshold := 1.7e308%float; c_slew_max := 1e308%float; c_slew_min_dur := 1%float;
     c_max_freq := 0.5%float; c_off_thr := 1%float; c_off_left := 1%float;
     c_freq_thr := 1%float; c_freq_left := 1e200%float |}.
Definition nan_witness_ops : list op :=
  [SteerOffset 1.5e308%float 0%float;
   Update (Some {| e_off := 0%float; e_freq := 1e308%float; e_p00 := 0%float; e_p11 := 1e300%float |}) false].

(* a history for the non-vacuity example of Props/C02.v: a frequency steer, a slew, a consensus update while the
   slew runs, the end of the slew, and two infinite (non-NaN) requests *)
Definition nv_ops : list op :=
  [SteerFreq 1e-9%float; SteerOffset 0.009%float 1e-7%float;
   Update (Some {| e_off := 1e-4%float; e_freq := 2e-6%float; e_p00 := 1e-10%float; e_p11 := 1e-16%float |}) true;
   TimeUpdate; SteerFreq infinity; SteerFreq neg_infinity].
