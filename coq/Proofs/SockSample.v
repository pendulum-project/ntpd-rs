(* C40: on a 40-byte buffer deserialize_sample is the decision table [decide] over the fields of
   gpsd's sample format, and so is the whole receive path on the datagram. *)
From V Require Import Model.SockSample Gen.ConstSock.

(* the sample format of gpsd's timehint.c / chrony's SOCK driver, written with literal positions
   (the specification side):
     struct sock_sample { struct timeval tv; double offset; int pulse; int leap; int _pad; int magic; }
   tv occupies bytes 0..16 *)
Definition GPSD_SAMPLE_SIZE : Z := 40.
Definition GPSD_MAGIC : Z := 0x534f434b.
Definition sample_of_buf (buf : list Z) : sample :=
  {| s_offset := le_Z (slice 16 24 buf);
     s_pulse := to_signed 32 (le_Z (slice 24 28 buf));
     s_leap := to_signed 32 (le_Z (slice 28 32 buf));
     s_magic := to_signed 32 (le_Z (slice 36 40 buf)) |}.

(* the census of the constants translator: four rejecting exits, one recv into
   the buffer that is larger than a sample *)
Example sock_census :
  SOCK_ERR_RETURNS = 4 /\ SOCK_RECV_CALLS = 1 /\ SOCK_RECV_BUF_DECL = 1 /\
  SOCK_SAMPLE_SIZE = GPSD_SAMPLE_SIZE /\ SOCK_MAGIC = GPSD_MAGIC /\ 0 < SOCK_RECV_EXTRA.
Proof. repeat split. Qed.

Lemma field_ok lo hi w buf :
  hi <= Z.of_nat (length buf) -> lo <= hi -> hi - lo = w ->
  field lo hi w buf = Ok (le_Z (slice (Z.to_nat lo) (Z.to_nat hi) buf)).
Proof.
  intros H1 H2 H3. unfold field.
  assert ((Z.of_nat (length buf) <? hi) = false) as -> by lia.
  assert ((hi <? lo) = false) as -> by lia.
  assert ((hi - lo =? w) = true) as -> by lia.
  reflexivity.
Qed.

Lemma parse_fields_ok buf :
  length buf = 40%nat -> parse_fields buf = Ok (sample_of_buf buf).
Proof.
  intros Hlen. unfold parse_fields.
  rewrite !field_ok by (try rewrite Hlen; vm_compute; try reflexivity; discriminate).
  reflexivity.
Qed.

(* the decision table of deserialize_sample on a 40-byte buffer *)
Definition decide (size : Z) (buf : list Z) : res sample :=
  let s := sample_of_buf buf in
  if negb (size =? GPSD_SAMPLE_SIZE) then Err E_SIZE
  else if negb (s_magic s =? GPSD_MAGIC) then Err E_MAGIC
  else if negb (s_pulse s =? 0) then Err E_PULSE
  else if negb (f64_is_finite (f64_of_bits (s_offset s))) then Err E_OFFSET
  else Ok s.

Lemma deserialize_spec size buf :
  length buf = 40%nat -> deserialize_sample (Some size) buf = decide size buf.
Proof.
  intros Hlen. unfold deserialize_sample, decide.
  change SOCK_SAMPLE_SIZE with GPSD_SAMPLE_SIZE. change SOCK_MAGIC with GPSD_MAGIC.
  destruct (negb (size =? GPSD_SAMPLE_SIZE)); [reflexivity|].
  rewrite (parse_fields_ok buf Hlen). reflexivity.
Qed.

Lemma decide_ok_iff size buf s :
  decide size buf = Ok s <->
  (size = 40 /\ s = sample_of_buf buf /\ s_magic s = GPSD_MAGIC /\ s_pulse s = 0 /\
   f64_is_finite (f64_of_bits (s_offset s)) = true).
Proof.
  unfold decide, GPSD_SAMPLE_SIZE. set (s0 := sample_of_buf buf).
  destruct (Z.eqb_spec size 40), (Z.eqb_spec (s_magic s0) GPSD_MAGIC), (Z.eqb_spec (s_pulse s0) 0),
    (f64_is_finite (f64_of_bits (s_offset s0))) eqn:F; cbn [negb];
    (split; [try discriminate; intros [= <-]; auto | intros (? & -> & ? & ? & ?); congruence]).
Qed.

Lemma decide_wrong_size size buf : size <> 40 -> decide size buf = Err E_SIZE.
Proof. intros H. unfold decide, GPSD_SAMPLE_SIZE. destruct (Z.eqb_spec size 40); [contradiction | reflexivity]. Qed.

Lemma decide_no_panic size buf p : decide size buf <> Panic p.
Proof.
  unfold decide. repeat match goal with |- context [if ?c then _ else _] => destruct c end; discriminate.
Qed.

Lemma pad_to_length n l : length (pad_to n l) = n.
Proof. unfold pad_to. rewrite app_length, firstn_length, repeat_length. lia. Qed.

Lemma pad_to_exact l k : firstn (length l) (pad_to (length l + k) l) = l.
Proof.
  unfold pad_to. rewrite firstn_all2 with (n := (length l + k)%nat) by lia.
  rewrite firstn_app, firstn_all, Nat.sub_diag. cbn. apply app_nil_r.
Qed.

Lemma handle_datagram_spec d :
  handle_datagram d = decide (Z.of_nat (length d)) d.
Proof.
  unfold handle_datagram, recv, receive_sample, SOCK_RECV_BUFFER_SIZE.
  change SOCK_SAMPLE_SIZE with 40. change SOCK_RECV_EXTRA with 1. change (40 + 1) with 41.
  rewrite pad_to_length. change (Z.of_nat (Z.to_nat 41) <? 40) with false. cbv iota.
  rewrite deserialize_spec.
  2:{ rewrite firstn_length, pad_to_length. reflexivity. }
  unfold decide, GPSD_SAMPLE_SIZE.
  destruct (Z.of_nat (length d) =? 40) eqn:E.
  - assert (length d = 40%nat) as Hl by lia.
    assert ((Z.min (Z.of_nat (length d)) 41 =? 40) = true) as -> by lia.
    change (Z.to_nat 41) with (40 + 1)%nat. change (Z.to_nat 40) with 40%nat.
    pose proof (pad_to_exact d 1) as P. rewrite Hl in P. rewrite P. reflexivity.
  - assert ((Z.min (Z.of_nat (length d)) 41 =? 40) = false) as -> by lia.
    reflexivity.
Qed.

Lemma measured_offset_spec time s :
  measured_offset (measurement_of time s) =
  to_signed 64 (- from_seconds (f64_of_bits (s_offset s))).
Proof.
  unfold measured_offset, measurement_of, to_signed, wrap. cbn [m_sender_ts m_receiver_ts].
  rewrite Zminus_mod_idemp_l.
  replace (time - from_seconds (f64_of_bits (s_offset s)) - time)
    with (- from_seconds (f64_of_bits (s_offset s))) by lia.
  reflexivity.
Qed.

(* the sample of the repository's unit test (test_deserialize_sample) *)
Definition example_dgram : list Z :=
  [127; 136; 245; 102; 0; 0; 0; 0; 33; 129; 4; 0; 0; 0; 0; 0; 125; 189; 182; 209; 254;
   119; 19; 65; 0; 0; 0; 0; 0; 0; 0; 0; 0; 0; 0; 0; 75; 67; 79; 83].
