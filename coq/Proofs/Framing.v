(* C38: read_json guard by guard (size limit, usize conversion, truncated stream, payload
   codec), and the big-endian header codec it rests on. *)
From V Require Import Model.Framing Gen.ConstFraming Proofs.Common.
From Coq Require Import ZifyBool.

(* census of the constants translator: one header write followed by the
   payload, the guard directly after read_u64, resize+read_exact+from_slice
   after it, one unwrap *)
Example framing_census :
  FRAMING_WRITE_U64 = 1 /\ FRAMING_READ_GUARD_ORDER = 1 /\ FRAMING_RESIZE_READ = 1 /\
  FRAMING_UNWRAP_SITES = 1 /\ MAX_JSON_MESSAGE_SIZE = 1048576.
Proof. repeat split. Qed.

Lemma le_Z_app a x : le_Z (a ++ [x]) = le_Z a + 256 ^ Z.of_nat (length a) * x.
Proof.
  induction a as [|b r IH]; cbn [app le_Z length].
  - change (Z.of_nat 0) with 0. rewrite Z.pow_0_r. lia.
  - rewrite IH, Nat2Z.inj_succ, Z.pow_succ_r by lia. lia.
Qed.

Lemma be_bytes_length k z : length (be_bytes k z) = k.
Proof. induction k; cbn; auto. Qed.

Lemma be_Z_cons x r : be_Z (x :: r) = be_Z r + 256 ^ Z.of_nat (length r) * x.
Proof. unfold be_Z. cbn [rev]. rewrite le_Z_app, rev_length. reflexivity. Qed.

Lemma be_Z_be_bytes k z : be_Z (be_bytes k z) = z mod 256 ^ Z.of_nat k.
Proof.
  induction k as [|k IH].
  - cbn. rewrite Z.mod_1_r. reflexivity.
  - cbn [be_bytes]. rewrite be_Z_cons, be_bytes_length, IH.
    rewrite Nat2Z.inj_succ, Z.pow_succ_r by lia.
    rewrite (Z.mul_comm 256), Z.rem_mul_r by lia. lia.
Qed.

Lemma be_Z_header n : 0 <= n < 2 ^ 64 -> be_Z (be_bytes 8 n) = n.
Proof.
  intros H. rewrite be_Z_be_bytes. change (256 ^ Z.of_nat 8) with (2 ^ 64).
  apply Z.mod_small. lia.
Qed.

Definition is_byte (b : Z) : Prop := 0 <= b < 256.

Lemma le_Z_bound l : Forall is_byte l -> 0 <= le_Z l < 256 ^ Z.of_nat (length l).
Proof.
  induction 1 as [|b r Hb _ IH]; cbn [le_Z length].
  - cbn. lia.
  - rewrite Nat2Z.inj_succ, Z.pow_succ_r by lia. unfold is_byte in Hb. lia.
Qed.

Lemma be_Z_bound l : Forall is_byte l -> 0 <= be_Z l < 256 ^ Z.of_nat (length l).
Proof.
  intros H. unfold be_Z. rewrite <- (rev_length l). apply le_Z_bound.
  apply Forall_rev. exact H.
Qed.

Lemma max_val : MAX_JSON_MESSAGE_SIZE = 1048576.
Proof. reflexivity. Qed.
(* lia, told the values of the three size constants *)
Ltac flia := pose proof max_val; unfold HEADER_SIZE, USIZE_MAX in *; lia.

(* the header of a stream that starts with a written header *)
Lemma header_read n rest : 0 <= n < 2 ^ 64 -> be_Z (firstn 8 (be_bytes 8 n ++ rest)) = n.
Proof.
  intros H. rewrite firstn_app, be_bytes_length, Nat.sub_diag, firstn_O, app_nil_r.
  rewrite firstn_all2 by (rewrite be_bytes_length; lia). apply be_Z_header, H.
Qed.

(* eight bytes always fit a u64 *)
Lemma header_bound stream : Forall is_byte stream -> 0 <= be_Z (firstn 8 stream) < 2 ^ 64.
Proof.
  intros HB. pose proof (be_Z_bound (firstn 8 stream) (Forall_firstn _ 8 _ HB)) as B.
  assert (256 ^ Z.of_nat (length (firstn 8 stream)) <= 256 ^ 8)
    by (apply Z.pow_le_mono_r; rewrite ?firstn_length; lia).
  change (256 ^ 8) with (2 ^ 64) in *. lia.
Qed.

Section Codec.
  Context {V : Type}.
  Variable decode : list Z -> option V.

  (* read_json, guard by guard *)
  Lemma read_json_cases stream :
    let avail := Z.of_nat (length stream) in
    let n := be_Z (firstn 8 stream) in
    let r := read_json decode stream in
    (avail < HEADER_SIZE /\ r = mk_rr (Err E_EOF) avail 0) \/
    (HEADER_SIZE <= avail /\ n > MAX_JSON_MESSAGE_SIZE /\ r = mk_rr (Err E_TOO_LARGE) HEADER_SIZE 0) \/
    (HEADER_SIZE <= avail /\ n <= MAX_JSON_MESSAGE_SIZE /\ n > USIZE_MAX /\ r = mk_rr (Err E_UNREPRESENTABLE) HEADER_SIZE 0) \/
    (HEADER_SIZE <= avail /\ n <= MAX_JSON_MESSAGE_SIZE /\ avail - HEADER_SIZE < n /\ r = mk_rr (Err E_EOF) avail n) \/
    (HEADER_SIZE <= avail /\ n <= MAX_JSON_MESSAGE_SIZE /\ n <= avail - HEADER_SIZE /\
     r = mk_rr (match decode (firstn (Z.to_nat n) (skipn 8 stream)) with Some v => Ok v | None => Err E_DECODE end)
               (HEADER_SIZE + n) n).
  Proof.
    intros avail n r. unfold r, read_json. fold avail n.
    assert (L : Z.of_nat (length (skipn 8 stream)) = Z.max 0 (avail - HEADER_SIZE)) by (rewrite skipn_length; unfold avail; flia).
    rewrite L. clear L.
    destruct (Z.ltb_spec avail HEADER_SIZE); [left; auto |]. right.
    destruct (Z.gtb_spec n MAX_JSON_MESSAGE_SIZE); [left; repeat split; auto; lia |]. right.
    destruct (Z.gtb_spec n USIZE_MAX); [left; repeat split; auto; lia |]. right.
    destruct (Z.ltb_spec (Z.max 0 (avail - HEADER_SIZE)) n); [left; repeat split; auto; lia |]. right.
    repeat split; try lia. destruct (decode _); reflexivity.
  Qed.

  Lemma size_guard stream :
    HEADER_SIZE <= Z.of_nat (length stream) ->
    be_Z (firstn 8 stream) > MAX_JSON_MESSAGE_SIZE ->
    read_json decode stream = mk_rr (Err E_TOO_LARGE) 8 0.
  Proof.
    intros H1 H2.
    destruct (read_json_cases stream) as [[C _] | [(_ & _ & ->) | [(_ & C & _) | [(_ & C & _) | (_ & C & _)]]]];
      reflexivity || lia.
  Qed.

  Lemma read_never_unrepresentable stream :
    Forall is_byte stream -> rr_value (read_json decode stream) <> Err E_UNREPRESENTABLE.
  Proof.
    intros HB. pose proof (header_bound stream HB) as [_ B].
    destruct (read_json_cases stream) as [[_ ->] | [(_ & _ & ->) | [(_ & _ & C & _) | [(_ & _ & _ & ->) | (_ & _ & _ & ->)]]]];
      cbn [rr_value]; try discriminate; [flia | destruct (decode _); discriminate].
  Qed.
End Codec.
