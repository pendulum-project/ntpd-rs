(* Proofs about Model/Estimator.v, generic in the element type and its arithmetic: the invariant WF
   of the estimator state and its preservation by every operation; each addition, removal and
   progress_time as a closed form under WF; the reports of unrelated identifiers kept by additions
   and removals; what each operation does to the time and to the set of internal clocks
   (apply_frame); operations on unknown or duplicate identifiers fail (bad_ident_fails). *)
From V Require Import Model.Estimator Proofs.Common.

Local Open Scope nat_scope.

Lemma length_upd {X} (v : X) : forall l i, length (upd i v l) = length l.
Proof. induction l as [|x l IH]; intros [|i]; cbn; auto. Qed.

Lemma nth_upd_same {X} (v d : X) : forall l i, i < length l -> nth i (upd i v l) d = v.
Proof. induction l as [|x l IH]; intros [|i] H; cbn in *; try lia; auto. apply IH. lia. Qed.

Lemma nth_upd_other {X} (v d : X) : forall l i j, i <> j -> nth j (upd i v l) d = nth j l d.
Proof.
  induction l as [|x l IH]; intros [|i] [|j] H; cbn; auto; try lia; try (apply IH; lia).
Qed.

Lemma find_app {X} (p : X -> bool) l1 l2 :
  find p (l1 ++ l2) = match find p l1 with Some x => Some x | None => find p l2 end.
Proof. induction l1 as [|a l IH]; cbn; auto. destruct (p a); auto. Qed.

Lemma remove_first_split {X} (p : X -> bool) : forall l x r, remove_first p l = Some (x, r) ->
  exists l1 l2, l = l1 ++ x :: l2 /\ r = l1 ++ l2 /\ p x = true.
Proof.
  induction l as [|a l IH]; intros x r H; cbn in H; [discriminate|].
  destruct (p a) eqn:Hp.
  - inversion H; subst. now exists [], r.
  - destruct (remove_first p l) as [[y r']|]; [|discriminate]. inversion H; subst.
    destruct (IH _ _ eq_refl) as (l1 & l2 & -> & -> & Hx). now exists (a :: l1), l2.
Qed.

Lemma remove_first_some {X} (p : X -> bool) : forall l x r,
  remove_first p l = Some (x, r) ->
  p x = true /\ In x l /\ (forall y, In y r -> In y l) /\ length l = S (length r) /\
  (forall q : X -> bool, q x = false -> find q r = find q l).
Proof.
  intros l x r H. destruct (remove_first_split p _ _ _ H) as (l1 & l2 & -> & -> & Hx).
  split; [exact Hx|]. split; [apply in_elt|]. split; [|split].
  - intros y Hy. apply in_app_or in Hy. apply in_or_app. destruct Hy; [left|right; right]; assumption.
  - rewrite !app_length. cbn. lia.
  - intros q Hq. rewrite !find_app. cbn. now rewrite Hq.
Qed.

Lemma remove_first_none {X} (p : X -> bool) : forall l,
  remove_first p l = None <-> existsb p l = false.
Proof.
  induction l as [|a l IH]; cbn; [tauto|].
  destruct (p a); cbn.
  - split; discriminate.
  - destruct (remove_first p l) as [[y r']|]; split; intros H; try discriminate; try tauto.
    + apply IH in H. discriminate.
Qed.

Lemma remove_first_nodup {X Y} (p : X -> bool) (key : X -> Y) : forall l x r,
  remove_first p l = Some (x, r) -> NoDup (map key l) ->
  NoDup (map key r) /\ (forall y, In y r -> key y <> key x).
Proof.
  intros l x r H Hn. destruct (remove_first_split p _ _ _ H) as (l1 & l2 & -> & -> & _).
  rewrite map_app in Hn. apply NoDup_remove in Hn. rewrite <- map_app in Hn. destruct Hn as [Hn Hx].
  split; [exact Hn|]. intros y Hy Heq. apply Hx. rewrite <- Heq. now apply in_map.
Qed.

Lemma existsb_find {X} (p : X -> bool) l : existsb p l = if find p l then true else false.
Proof. induction l as [|a l IH]; cbn; auto. destruct (p a); auto. Qed.

Lemma find_none_existsb {X} (p : X -> bool) l : find p l = None <-> existsb p l = false.
Proof. rewrite existsb_find. destruct (find p l); split; congruence. Qed.

Lemma find_map_key {X} (p : X -> bool) (g : X -> X) l :
  (forall x, p (g x) = p x) -> find p (map g l) = option_map g (find p l).
Proof. intros Hg. induction l as [|a l IH]; cbn; auto. rewrite Hg. destruct (p a); auto. Qed.

Lemma find_in {X} (p : X -> bool) l x : find p l = Some x -> In x l /\ p x = true.
Proof. apply find_some. Qed.

Lemma linkid_eqb_eq a b : linkid_eqb a b = true <-> a = b.
Proof.
  destruct a as [[a1 a2] a3], b as [[b1 b2] b3]. unfold linkid_eqb, link_first, link_second. cbn.
  rewrite !andb_true_iff, !Z.eqb_eq. split; [intros [[-> ->] ->]; auto|intros H; inversion H; auto].
Qed.

Lemma linkid_eqb_refl a : linkid_eqb a a = true.
Proof. now apply linkid_eqb_eq. Qed.

Lemma linkid_eqb_neq a b : a <> b -> linkid_eqb a b = false.
Proof. intros H. destruct (linkid_eqb a b) eqn:E; auto. apply linkid_eqb_eq in E. contradiction. Qed.

Lemma not_in_false (b : bool) (P : Prop) : (b = true <-> P) -> b = false -> ~ P.
Proof. intros H E HP. apply H in HP. congruence. Qed.

(* the blocks of z1 rows from s1 and of z2 rows from s2 do not overlap *)
Definition sep (s1 z1 s2 z2 : nat) : Prop := s1 + z1 <= s2 \/ s2 + z2 <= s1.

Lemma sep_rows s b k : sep s 2 b k -> sep s 1 b k /\ sep (s + 1) 1 b k.
Proof. unfold sep. lia. Qed.

(* update_indices after the removal of the block of k rows at b, on blocks that do not meet it.
   The splices read row r of the result from row (if r <? b then r else r + k) of the original. *)
Lemma upd_idx_back b k i : sep i 1 b k ->
  (if upd_idx b k i <? b then upd_idx b k i else upd_idx b k i + k) = i.
Proof.
  unfold sep, upd_idx. intros H. destruct (Nat.ltb_spec b i);
    [destruct (Nat.ltb_spec (i - k) b)|destruct (Nat.ltb_spec i b)]; lia.
Qed.

Lemma upd_idx_succ b k s : sep s 2 b k -> upd_idx b k (s + 1) = upd_idx b k s + 1.
Proof. unfold sep, upd_idx. intros H. destruct (Nat.ltb_spec b (s + 1)), (Nat.ltb_spec b s); lia. Qed.

Lemma upd_idx_bound b k s z n : sep s z b k -> s + z <= n -> b + k <= n ->
  upd_idx b k s + z <= n - k.
Proof. unfold sep, upd_idx. intros H Hs Hb. destruct (Nat.ltb_spec b s); lia. Qed.

Lemma upd_idx_sep b k s1 z1 s2 z2 :
  sep s1 z1 b k -> sep s2 z2 b k -> sep s1 z1 s2 z2 -> sep (upd_idx b k s1) z1 (upd_idx b k s2) z2.
Proof.
  unfold sep, upd_idx. intros H1 H2 H. destruct (Nat.ltb_spec b s1), (Nat.ltb_spec b s2); lia.
Qed.

Section WithOps.
Context {A : Type} (F : Ops A).

Notation matrix := (@matrix A).
Notation est := (@est A).
Notation clock_info := (@clock_info A).
Notation link_info := (@link_info A).

Lemma length_tab n (f : nat -> A) : length (tab n f) = n.
Proof. unfold tab. now rewrite map_length, seq_length. Qed.

Lemma nth_tab n (f : nat -> A) d k : k < n -> nth k (tab n f) d = f k.
Proof.
  intros H. unfold tab. rewrite (nth_indep _ d (f 0)) by now rewrite map_length, seq_length.
  now rewrite map_nth, seq_nth.
Qed.

Lemma mget_mnew r c f i j : i < r -> j < c -> mget F (mnew r c f) i j = f i j.
Proof.
  intros Hi Hj. unfold mget, mnew. cbn [m_cols m_data].
  rewrite nth_tab by nia.
  assert (c <> 0) by lia.
  replace (i * c + j) with (j + i * c) by lia.
  rewrite Nat.div_add, Nat.mod_add by auto.
  rewrite Nat.div_small, Nat.mod_small by auto. reflexivity.
Qed.

Lemma mget_mnew_vec r f i : i < r -> mget F (mnew_vec r f) i 0 = f i.
Proof.
  intros Hi. unfold mget, mnew_vec. cbn [m_cols m_data].
  rewrite Nat.mul_1_r, Nat.add_0_r. now apply nth_tab.
Qed.

Lemma mget_mset_same m r c v :
  r * m_cols m + c < length (m_data m) -> mget F (mset m r c v) r c = v.
Proof. intros H. unfold mget, mset. cbn. now apply nth_upd_same. Qed.

Lemma mget_mset_other m r c v r' c' :
  r * m_cols m + c <> r' * m_cols m + c' -> mget F (mset m r c v) r' c' = mget F m r' c'.
Proof. intros H. unfold mget, mset. cbn. now apply nth_upd_other. Qed.

(* the state is n x 1, the covariance n x n; identifiers are unique; the blocks
   (2 rows per clock from base_index, 1 row per link at index) lie inside 0..n,
   are pairwise disjoint, and their sizes add up to n: they partition 0..n *)
Record WF (st : est) : Prop := {
  wf_cols : m_cols (e_state st) = 1;
  wf_len : length (m_data (e_state st)) = m_rows (e_state st);
  wf_urows : m_rows (e_unc st) = m_rows (e_state st);
  wf_ucols : m_cols (e_unc st) = m_rows (e_state st);
  wf_ulen : length (m_data (e_unc st)) = m_rows (e_state st) * m_rows (e_state st);
  wf_cids : NoDup (map (@ci_id A) (e_clocks st));
  wf_lids : NoDup (map (@li_id A) (e_links st));
  wf_ext : NoDup (e_ext st);
  wf_ext_int : forall id, In id (e_ext st) -> ~ In id (map (@ci_id A) (e_clocks st));
  wf_cb : forall c, In c (e_clocks st) -> ci_base c + 2 <= m_rows (e_state st);
  wf_lb : forall l, In l (e_links st) -> li_index l + 1 <= m_rows (e_state st);
  wf_cc : forall c1 c2, In c1 (e_clocks st) -> In c2 (e_clocks st) -> ci_id c1 <> ci_id c2 ->
          sep (ci_base c1) 2 (ci_base c2) 2;
  wf_cl : forall c l, In c (e_clocks st) -> In l (e_links st) -> sep (ci_base c) 2 (li_index l) 1;
  wf_ll : forall l1 l2, In l1 (e_links st) -> In l2 (e_links st) -> li_id l1 <> li_id l2 ->
          li_index l1 <> li_index l2;
  wf_sum : 2 * length (e_clocks st) + length (e_links st) = m_rows (e_state st);
}.

Lemma WF_empty t : WF (empty F t).
Proof.
  constructor; cbn; try constructor; try tauto; try reflexivity; intros; contradiction.
Qed.

Lemma dims_ok_WF (st : est) : WF st -> dims_ok st = true.
Proof.
  intros [H1 H2 H3 H4 H5 _ _ _ _ _ _ _ _ _ _]. unfold dims_ok.
  rewrite H1, H2, H3, H4, H5, !Nat.eqb_refl. reflexivity.
Qed.

Definition link_present (st : est) (id : linkid) : bool :=
  existsb (fun l => linkid_eqb (li_id l) id) (e_links st).

Lemma is_internal_in (st : est) id :
  is_internal_clock st id = true <-> In id (map (@ci_id A) (e_clocks st)).
Proof.
  unfold is_internal_clock. rewrite existsb_exists, in_map_iff. split.
  - intros [c [H1 H2]]. exists c. apply Z.eqb_eq in H2. auto.
  - intros [c [H1 H2]]. exists c. split; auto. now apply Z.eqb_eq.
Qed.

Lemma is_external_in (st : est) id : is_external_clock st id = true <-> In id (e_ext st).
Proof. apply existsb_eqb_In, Z.eqb_eq. Qed.

Lemma link_present_in (st : est) id : link_present st id = true <-> In id (map (@li_id A) (e_links st)).
Proof.
  unfold link_present. rewrite existsb_exists, in_map_iff. split.
  - intros [l [H1 H2]]. exists l. apply linkid_eqb_eq in H2. auto.
  - intros [l [H1 H2]]. exists l. split; auto. now apply linkid_eqb_eq.
Qed.

Lemma get_clock_info_some (st : est) id c :
  get_clock_info st id = Some c -> In c (e_clocks st) /\ ci_id c = id.
Proof. intros H. apply find_some in H. destruct H as [H1 H2]. apply Z.eqb_eq in H2. auto. Qed.

Lemma get_clock_info_none (st : est) id :
  get_clock_info st id = None <-> is_internal_clock st id = false.
Proof. apply find_none_existsb. Qed.

Lemma get_clock_info_internal (st : est) id c :
  get_clock_info st id = Some c -> is_internal_clock st id = true.
Proof.
  intros H. destruct (is_internal_clock st id) eqn:E; auto. apply get_clock_info_none in E. congruence.
Qed.

Lemma get_link_info_some (st : est) id l :
  get_link_info st id = Some l -> In l (e_links st) /\ li_id l = id.
Proof. intros H. apply find_some in H. destruct H as [H1 H2]. apply linkid_eqb_eq in H2. auto. Qed.

(* a clock found by identifier in a list with unique identifiers *)
Lemma find_clock_unique (l : list clock_info) c :
  NoDup (map (@ci_id A) l) -> In c l -> find (fun x => ci_id x =? ci_id c)%Z l = Some c.
Proof.
  induction l as [|a l IH]; intros Hn Hin; [contradiction|].
  cbn in *. inversion Hn; subst. destruct Hin as [->|Hin].
  - now rewrite Z.eqb_refl.
  - destruct (Z.eqb_spec (ci_id a) (ci_id c)) as [E|E]; auto.
    exfalso. apply H1. rewrite E. now apply in_map.
Qed.

Lemma find_link_unique (l : list link_info) x :
  NoDup (map (@li_id A) l) -> In x l -> find (fun y => linkid_eqb (li_id y) (li_id x)) l = Some x.
Proof.
  induction l as [|a l IH]; intros Hn Hin; [contradiction|].
  cbn in *. inversion Hn; subst. destruct Hin as [->|Hin].
  - now rewrite linkid_eqb_refl.
  - destruct (linkid_eqb (li_id a) (li_id x)) eqn:E; auto.
    apply linkid_eqb_eq in E. exfalso. apply H1. rewrite E. now apply in_map.
Qed.

Lemma get_clock_info_unique (st : est) c : WF st -> In c (e_clocks st) ->
  get_clock_info st (ci_id c) = Some c.
Proof. intros W. apply find_clock_unique, (wf_cids _ W). Qed.

Lemma get_link_info_unique (st : est) l : WF st -> In l (e_links st) ->
  get_link_info st (li_id l) = Some l.
Proof. intros W. apply find_link_unique, (wf_lids _ W). Qed.

Lemma entry_ok (st : est) i : WF st -> i < m_rows (e_state st) ->
  entry F st i = Ok (mget F (e_state st) i 0, fsqrt F (mget F (e_unc st) i i)).
Proof.
  intros W Hi. unfold entry, in_range.
  rewrite (wf_cols _ W), (wf_urows _ W), (wf_ucols _ W).
  now rewrite (proj2 (Nat.ltb_lt _ _) Hi).
Qed.

Definition same_estimates_except_clock (st st' : est) (id : Z) : Prop :=
  (forall c, c <> id -> clock_offset F st' c = clock_offset F st c
                        /\ clock_frequency F st' c = clock_frequency F st c) /\
  (forall l, link_delay F st' l = link_delay F st l).

Definition same_estimates_except_link (st st' : est) (id : linkid) : Prop :=
  (forall c, clock_offset F st' c = clock_offset F st c
             /\ clock_frequency F st' c = clock_frequency F st c) /\
  (forall l, l <> id -> link_delay F st' l = link_delay F st l).

Definition same_estimates (st st' : est) : Prop :=
  (forall c, clock_offset F st' c = clock_offset F st c
             /\ clock_frequency F st' c = clock_frequency F st c) /\
  (forall l, link_delay F st' l = link_delay F st l).

Lemma clock_reports_at (st : est) id c : get_clock_info st id = Some c ->
  clock_offset F st id = entry F st (ci_base c) /\ clock_frequency F st id = entry F st (ci_base c + 1).
Proof. intros H. unfold clock_offset, clock_frequency. now rewrite H. Qed.

Lemma clock_reports_unknown (st : est) id : get_clock_info st id = None ->
  clock_offset F st id = Err E_UnknownClock /\ clock_frequency F st id = Err E_UnknownClock.
Proof. intros H. unfold clock_offset, clock_frequency. now rewrite H. Qed.

Lemma link_report_at (st : est) id l : get_link_info st id = Some l ->
  link_delay F st id = entry F st (li_index l).
Proof. intros H. unfold link_delay. now rewrite H. Qed.

Lemma link_report_unknown (st : est) id : get_link_info st id = None ->
  link_delay F st id = Err E_UnknownLink.
Proof. intros H. unfold link_delay. now rewrite H. Qed.

(* The reports of an identifier are the same in st' as in st when the lookup in st' gives the
   image under g of what it gives in st, and the rows of the image hold in st' the entries that
   the rows of the original hold in st.  g is the identity unless rows move (removals). *)
Lemma clock_reports_kept (st st' : est) (g : clock_info -> clock_info) id :
  get_clock_info st' id = option_map g (get_clock_info st id) ->
  (forall c, In c (e_clocks st) -> ci_id c = id ->
     entry F st' (ci_base (g c)) = entry F st (ci_base c) /\
     entry F st' (ci_base (g c) + 1) = entry F st (ci_base c + 1)) ->
  clock_offset F st' id = clock_offset F st id /\ clock_frequency F st' id = clock_frequency F st id.
Proof.
  intros Hg He. unfold clock_offset, clock_frequency, offset_index, frequency_index. rewrite Hg.
  destruct (get_clock_info st id) as [c|] eqn:Hc; cbn [option_map]; auto.
  destruct (get_clock_info_some _ _ _ Hc). auto.
Qed.

Lemma link_report_kept (st st' : est) (g : link_info -> link_info) id :
  get_link_info st' id = option_map g (get_link_info st id) ->
  (forall l, In l (e_links st) -> li_id l = id -> entry F st' (li_index (g l)) = entry F st (li_index l)) ->
  link_delay F st' id = link_delay F st id.
Proof.
  intros Hg He. unfold link_delay. rewrite Hg.
  destruct (get_link_info st id) as [l|] eqn:Hl; cbn [option_map]; auto.
  destruct (get_link_info_some _ _ _ Hl). auto.
Qed.

(* WF of a state whose vector and covariance are built by mnew_vec / mnew / extend, from W : WF of
   the old state: the first five fields (the dimensions) are proved here, the ten fields about
   the info lists (wf_cids ... wf_sum) are left, in the order of the record *)
Ltac wf_dims W :=
  constructor;
  cbn [e_state e_unc e_clocks e_ext e_links m_rows m_cols m_data mnew_vec extend mnew];
  [ reflexivity | apply length_tab | now rewrite (wf_urows _ W) | now rewrite (wf_ucols _ W)
  | now rewrite length_tab, (wf_urows _ W), (wf_ucols _ W) | .. ].

Lemma extend_vec_ok (m : matrix) vals : m_cols m = 1 ->
  extend_vec F m vals = Ok (mnew_vec (m_rows m + length vals)
     (fun row => if row <? m_rows m then mget F m row 0 else nth (row - m_rows m) vals (f0 F))).
Proof. intros H. unfold extend_vec. rewrite H. reflexivity. Qed.

Lemma mget_extend_old (m : matrix) k blk i j : i < m_rows m -> j < m_cols m ->
  mget F (extend F m k blk) i j = mget F m i j.
Proof.
  intros Hi Hj. unfold extend. rewrite mget_mnew by lia.
  now rewrite !(proj2 (Nat.ltb_lt _ _)) by assumption.
Qed.

Lemma mget_extend_new (m : matrix) k blk i j : i < k -> j < k ->
  mget F (extend F m k blk) (m_rows m + i) (m_cols m + j) = blk i j.
Proof.
  intros Hi Hj. unfold extend. rewrite mget_mnew by lia.
  rewrite (proj2 (Nat.ltb_ge _ _)), !(proj2 (Nat.leb_le _ _)) by lia. cbn [andb]. f_equal; lia.
Qed.

(* the state after appending the rows vals with covariance block blk, with the info lists cs, ls *)
Definition extended_state (st : est) (vals : list A) (blk : nat -> nat -> A)
    (cs : list clock_info) (ls : list link_info) : est :=
  {| e_time := e_time st;
     e_state := mnew_vec (m_rows (e_state st) + length vals)
        (fun row => if row <? m_rows (e_state st) then mget F (e_state st) row 0
                    else nth (row - m_rows (e_state st)) vals (f0 F));
     e_unc := extend F (e_unc st) (length vals) blk;
     e_clocks := cs; e_ext := e_ext st; e_links := ls |}.

Section Extended.
Variables (st : est) (vals : list A) (blk : nat -> nat -> A) (cs : list clock_info) (ls : list link_info).
Hypothesis W : WF st.
Hypothesis W' : WF (extended_state st vals blk cs ls).

Lemma entry_extended_old i : i < m_rows (e_state st) ->
  entry F (extended_state st vals blk cs ls) i = entry F st i.
Proof.
  intros Hi. rewrite (entry_ok _ _ W') by (cbn; lia). rewrite (entry_ok _ _ W Hi).
  cbn [extended_state e_state e_unc]. rewrite mget_mnew_vec by lia.
  rewrite mget_extend_old by (rewrite ?(wf_urows _ W), ?(wf_ucols _ W); exact Hi).
  now rewrite (proj2 (Nat.ltb_lt _ _) Hi).
Qed.

Lemma entry_extended_new i : i < length vals ->
  entry F (extended_state st vals blk cs ls) (m_rows (e_state st) + i) =
  Ok (nth i vals (f0 F), fsqrt F (blk i i)).
Proof.
  intros Hi. rewrite (entry_ok _ _ W') by (cbn; lia).
  cbn [extended_state e_state e_unc]. rewrite mget_mnew_vec by lia.
  rewrite (proj2 (Nat.ltb_ge _ _)) by lia.
  replace (m_rows (e_state st) + i - m_rows (e_state st)) with i by lia.
  pose proof (mget_extend_new (e_unc st) (length vals) blk i i Hi Hi) as E.
  rewrite (wf_urows _ W), (wf_ucols _ W) in E. now rewrite E.
Qed.

(* an identifier that the new lists resolve as st does keeps its reports *)
Lemma extended_clock_reports id : find (fun c => ci_id c =? id)%Z cs = get_clock_info st id ->
  clock_offset F (extended_state st vals blk cs ls) id = clock_offset F st id /\
  clock_frequency F (extended_state st vals blk cs ls) id = clock_frequency F st id.
Proof.
  intros Hf. apply (clock_reports_kept _ _ (fun x => x)).
  - unfold get_clock_info at 1. cbn [extended_state e_clocks]. rewrite Hf. now destruct (get_clock_info st id).
  - intros c Hin _. pose proof (wf_cb _ W c Hin). split; apply entry_extended_old; lia.
Qed.

Lemma extended_link_report id : find (fun l => linkid_eqb (li_id l) id) ls = get_link_info st id ->
  link_delay F (extended_state st vals blk cs ls) id = link_delay F st id.
Proof.
  intros Hf. apply (link_report_kept _ _ (fun x => x)).
  - unfold get_link_info at 1. cbn [extended_state e_links]. rewrite Hf. now destruct (get_link_info st id).
  - intros l Hin _. pose proof (wf_lb _ W l Hin). apply entry_extended_old. lia.
Qed.
End Extended.

Definition clock_blk (ou fu : A) (r c : nat) : A :=
  match r, c with O, O => sq F ou | S O, S O => sq F fu | _, _ => f0 F end.

Lemma add_clock_eq (st : est) id ov ou fv fu w : WF st ->
  add_clock F id ov ou fv fu w st =
  if is_known_clock st id then Err E_ClockAlreadyExists
  else Ok (extended_state st [ov; fv] (clock_blk ou fu)
             (e_clocks st ++ [{| ci_id := id; ci_base := m_rows (e_state st); ci_wander := w |}])
             (e_links st)).
Proof.
  intros W. unfold add_clock, is_known_clock. rewrite (extend_vec_ok _ _ (wf_cols _ W)).
  destruct (is_external_clock st id), (is_internal_clock st id); reflexivity.
Qed.

Lemma add_clock_shape (st : est) id ov ou fv fu w st' : WF st ->
  add_clock F id ov ou fv fu w st = Ok st' ->
  is_known_clock st id = false /\
  st' = extended_state st [ov; fv] (clock_blk ou fu)
          (e_clocks st ++ [{| ci_id := id; ci_base := m_rows (e_state st); ci_wander := w |}])
          (e_links st).
Proof.
  intros W H. rewrite add_clock_eq in H by exact W.
  destruct (is_known_clock st id); [discriminate|]. inversion H. auto.
Qed.

Lemma WF_add_clock (st : est) id ov ou fv fu w st' : WF st ->
  add_clock F id ov ou fv fu w st = Ok st' -> WF st'.
Proof.
  intros W H. destruct (add_clock_shape _ _ _ _ _ _ _ _ W H) as [Hk ->].
  apply orb_false_iff in Hk. destruct Hk as [Hi He].
  apply (not_in_false _ _ (is_internal_in st id)) in Hi.
  apply (not_in_false _ _ (is_external_in st id)) in He.
  unfold extended_state. wf_dims W.
  - (* wf_cids *) rewrite map_app. apply NoDup_snoc; [exact Hi|apply (wf_cids _ W)].
  - (* wf_lids *) apply (wf_lids _ W).
  - (* wf_ext *) apply (wf_ext _ W).
  - (* wf_ext_int *) intros x Hx Hc. rewrite map_app, in_app_iff in Hc.
    destruct Hc as [Hc|[Hc|[]]]; [eapply (wf_ext_int _ W); eauto|cbn in Hc; congruence].
  - (* wf_cb *) intros c Hc. apply in_app_iff in Hc. destruct Hc as [Hc|[<-|[]]]; cbn; [|lia].
    pose proof (wf_cb _ W c Hc). lia.
  - (* wf_lb *) intros l Hl. pose proof (wf_lb _ W l Hl). lia.
  - (* wf_cc *) intros c1 c2 H1 H2 Hne. apply in_app_iff in H1. apply in_app_iff in H2. unfold sep.
    destruct H1 as [H1|[<-|[]]], H2 as [H2|[<-|[]]]; cbn in *.
    + apply (wf_cc _ W); auto.
    + pose proof (wf_cb _ W c1 H1). lia.
    + pose proof (wf_cb _ W c2 H2). lia.
    + congruence.
  - (* wf_cl *) intros c l H1 Hl. apply in_app_iff in H1. unfold sep. destruct H1 as [H1|[<-|[]]]; cbn.
    + apply (wf_cl _ W); auto.
    + pose proof (wf_lb _ W l Hl). lia.
  - (* wf_ll *) apply (wf_ll _ W).
  - (* wf_sum *) rewrite app_length. cbn. pose proof (wf_sum _ W). lia.
Qed.

Lemma add_clock_preserves (st : est) id ov ou fv fu w st' : WF st ->
  add_clock F id ov ou fv fu w st = Ok st' ->
  same_estimates_except_clock st st' id /\ e_time st' = e_time st /\ e_ext st' = e_ext st /\
  clock_offset F st' id = Ok (ov, fsqrt F (sq F ou)) /\
  clock_frequency F st' id = Ok (fv, fsqrt F (sq F fu)).
Proof.
  intros W H. pose proof (WF_add_clock _ _ _ _ _ _ _ _ W H) as W'.
  destruct (add_clock_shape _ _ _ _ _ _ _ _ W H) as [Hk ->].
  apply orb_false_iff in Hk. destruct Hk as [Hi _]. apply get_clock_info_none in Hi.
  pose proof (entry_extended_new _ _ _ _ _ W W') as Hnew.
  split; [split|].
  - intros c Hc. apply (extended_clock_reports _ _ _ _ _ W W'). rewrite find_app. unfold get_clock_info.
    destruct (find _ (e_clocks st)); auto. cbn. destruct (Z.eqb_spec id c); [congruence|reflexivity].
  - intros l. now apply (extended_link_report _ _ _ _ _ W W').
  - split; [reflexivity|]. split; [reflexivity|].
    pose proof (get_clock_info_unique _ _ W' (in_elt _ _ _)) as Hid. cbn [ci_id] in Hid.
    destruct (clock_reports_at _ _ _ Hid) as [-> ->]. cbn [ci_base].
    pose proof (Hnew 0 ltac:(cbn; lia)) as Eo. rewrite Nat.add_0_r in Eo.
    rewrite Eo, (Hnew 1) by (cbn; lia). split; reflexivity.
Qed.

Lemma add_link_eq (st : est) id dv du dc : WF st ->
  add_link F id dv du dc st =
  if negb (is_known_clock st (link_first id)) then Err E_UnknownClock
  else if negb (is_known_clock st (link_second id)) then Err E_UnknownClock
  else if link_present st id then Err E_LinkAlreadyExists
  else Ok (extended_state st [dv] (fun _ _ => sq F du) (e_clocks st)
             (e_links st ++ [{| li_id := id; li_index := m_rows (e_state st); li_decay := dc |}])).
Proof. intros W. unfold add_link. rewrite (extend_vec_ok _ _ (wf_cols _ W)). reflexivity. Qed.

Lemma add_link_shape (st : est) id dv du dc st' : WF st ->
  add_link F id dv du dc st = Ok st' ->
  is_known_clock st (link_first id) = true /\ is_known_clock st (link_second id) = true /\
  link_present st id = false /\
  st' = extended_state st [dv] (fun _ _ => sq F du) (e_clocks st)
          (e_links st ++ [{| li_id := id; li_index := m_rows (e_state st); li_decay := dc |}]).
Proof.
  intros W H. rewrite add_link_eq in H by exact W.
  destruct (is_known_clock st (link_first id)); [|discriminate].
  destruct (is_known_clock st (link_second id)); [|discriminate].
  destruct (link_present st id); [discriminate|]. inversion H. auto.
Qed.

Lemma WF_add_link (st : est) id dv du dc st' : WF st ->
  add_link F id dv du dc st = Ok st' -> WF st'.
Proof.
  intros W H. destruct (add_link_shape _ _ _ _ _ _ W H) as (_ & _ & Hd & ->).
  apply (not_in_false _ _ (link_present_in st id)) in Hd.
  unfold extended_state. wf_dims W.
  - (* wf_cids *) apply (wf_cids _ W).
  - (* wf_lids *) rewrite map_app. apply NoDup_snoc; [exact Hd|apply (wf_lids _ W)].
  - (* wf_ext *) apply (wf_ext _ W).
  - (* wf_ext_int *) apply (wf_ext_int _ W).
  - (* wf_cb *) intros c Hc. pose proof (wf_cb _ W c Hc). lia.
  - (* wf_lb *) intros l Hl. apply in_app_iff in Hl. destruct Hl as [Hl|[<-|[]]]; cbn; [|lia].
    pose proof (wf_lb _ W l Hl). lia.
  - (* wf_cc *) apply (wf_cc _ W).
  - (* wf_cl *) intros c l Hc Hl. apply in_app_iff in Hl. unfold sep. destruct Hl as [Hl|[<-|[]]]; cbn.
    + apply (wf_cl _ W); auto.
    + pose proof (wf_cb _ W c Hc). lia.
  - (* wf_ll *) intros l1 l2 H1 H2 Hne. apply in_app_iff in H1. apply in_app_iff in H2.
    destruct H1 as [H1|[<-|[]]], H2 as [H2|[<-|[]]]; cbn in *.
    + apply (wf_ll _ W); auto.
    + pose proof (wf_lb _ W l1 H1). lia.
    + pose proof (wf_lb _ W l2 H2). lia.
    + congruence.
  - (* wf_sum *) rewrite app_length. cbn. pose proof (wf_sum _ W). lia.
Qed.

Lemma add_link_preserves (st : est) id dv du dc st' : WF st ->
  add_link F id dv du dc st = Ok st' ->
  same_estimates_except_link st st' id /\ e_time st' = e_time st /\ e_ext st' = e_ext st /\
  link_delay F st' id = Ok (dv, fsqrt F (sq F du)).
Proof.
  intros W H. pose proof (WF_add_link _ _ _ _ _ _ W H) as W'.
  destruct (add_link_shape _ _ _ _ _ _ W H) as (_ & _ & Hd & ->). apply find_none_existsb in Hd.
  pose proof (entry_extended_new _ _ _ _ _ W W') as Hnew.
  split; [split|].
  - intros c. now apply (extended_clock_reports _ _ _ _ _ W W').
  - intros l Hl. apply (extended_link_report _ _ _ _ _ W W'). rewrite find_app. unfold get_link_info.
    destruct (find (fun x => linkid_eqb (li_id x) l) (e_links st)); auto.
    cbn [find li_id]. now rewrite linkid_eqb_neq by congruence.
  - split; [reflexivity|]. split; [reflexivity|].
    pose proof (get_link_info_unique _ _ W' (in_elt _ _ _)) as Hid. cbn [li_id] in Hid.
    rewrite (link_report_at _ _ _ Hid). cbn [li_index].
    pose proof (Hnew 0 ltac:(cbn; lia)) as Eo. rewrite Nat.add_0_r in Eo. exact Eo.
Qed.

Lemma add_external_shape (st : est) id st' :
  add_external_clock id st = Ok st' ->
  is_known_clock st id = false /\
  st' = {| e_time := e_time st; e_state := e_state st; e_unc := e_unc st;
           e_clocks := e_clocks st; e_ext := e_ext st ++ [id]; e_links := e_links st |}.
Proof.
  unfold add_external_clock, is_known_clock.
  destruct (is_internal_clock st id), (is_external_clock st id); intros H; try discriminate.
  inversion H. auto.
Qed.

Lemma WF_add_external (st : est) id st' : WF st -> add_external_clock id st = Ok st' -> WF st'.
Proof.
  intros W H. destruct (add_external_shape _ _ _ H) as [Hk ->].
  apply orb_false_iff in Hk. destruct Hk as [Hi He].
  apply (not_in_false _ _ (is_internal_in st id)) in Hi.
  apply (not_in_false _ _ (is_external_in st id)) in He.
  destruct W. constructor; cbn; auto.
  - (* wf_ext *) apply NoDup_snoc; auto.
  - (* wf_ext_int *) intros x Hx. apply in_app_iff in Hx. destruct Hx as [Hx|[<-|[]]]; auto.
Qed.

Lemma remove_external_shape (st : est) id st' :
  remove_external_clock id st = Ok st' ->
  exists x ext', remove_first (Z.eqb id) (e_ext st) = Some (x, ext') /\
  st' = {| e_time := e_time st; e_state := e_state st; e_unc := e_unc st;
           e_clocks := e_clocks st; e_ext := ext'; e_links := e_links st |}.
Proof.
  unfold remove_external_clock. destruct (remove_first _ _) as [[x ext']|]; intros H; [|discriminate].
  inversion H. eauto.
Qed.

Lemma WF_remove_external (st : est) id st' : WF st -> remove_external_clock id st = Ok st' -> WF st'.
Proof.
  intros W H. destruct (remove_external_shape _ _ _ H) as (x & ext' & Hr & ->).
  destruct (remove_first_some _ _ _ _ Hr) as (_ & _ & Hsub & _).
  destruct (remove_first_nodup _ (fun z : Z => z) _ _ _ Hr) as [Hn _].
  { rewrite map_id. apply (wf_ext _ W). }
  rewrite map_id in Hn.
  destruct W. constructor; cbn; auto.
Qed.

Lemma external_preserves (st : est) id st' :
  add_external_clock id st = Ok st' \/ remove_external_clock id st = Ok st' ->
  same_estimates st st' /\ e_time st' = e_time st /\ e_state st' = e_state st /\ e_unc st' = e_unc st.
Proof.
  intros [H|H].
  - destruct (add_external_shape _ _ _ H) as [_ ->]. repeat split; reflexivity.
  - destruct (remove_external_shape _ _ _ H) as (x & ext' & _ & ->). repeat split; reflexivity.
Qed.

(* the state after removing the block of k rows starting at b, keeping the
   clocks rc and the links rl *)
Definition removed_state (st : est) (b k : nat) (rc : list clock_info) (rl : list link_info) : est :=
  {| e_time := e_time st;
     e_state := mnew_vec (m_rows (e_state st) - k)
        (fun row => if row <? b then mget F (e_state st) row 0 else mget F (e_state st) (row + k) 0);
     e_unc := mnew (m_rows (e_unc st) - k) (m_cols (e_unc st) - k)
        (fun row col =>
           let row' := if row <? b then row else row + k in
           let col' := if col <? b then col else col + k in
           mget F (e_unc st) row' col');
     e_clocks := map (upd_clock b k) rc; e_ext := e_ext st; e_links := map (upd_link b k) rl |}.

Lemma get_clock_info_removed (st : est) b k rc rl id :
  get_clock_info (removed_state st b k rc rl) id =
  option_map (upd_clock b k) (find (fun c => ci_id c =? id)%Z rc).
Proof. apply find_map_key. reflexivity. Qed.

Lemma get_link_info_removed (st : est) b k rc rl id :
  get_link_info (removed_state st b k rc rl) id =
  option_map (upd_link b k) (find (fun l => linkid_eqb (li_id l) id) rl).
Proof. apply find_map_key. reflexivity. Qed.

Lemma is_internal_removed (st : est) b k rc rl id :
  is_internal_clock (removed_state st b k rc rl) id = existsb (fun c => ci_id c =? id)%Z rc.
Proof. apply existsb_map. Qed.

(* what the removal of the block of k rows at b needs: the block lies inside the state; the
   clocks rc and the links rl that stay are among those of st, have distinct identifiers and
   blocks apart from the removed one, and together with it fill the state *)
Record removable (st : est) (b k : nat) (rc : list clock_info) (rl : list link_info) : Prop := {
  rm_in : b + k <= m_rows (e_state st);
  rm_rc : forall c, In c rc -> In c (e_clocks st);
  rm_rl : forall l, In l rl -> In l (e_links st);
  rm_nc : NoDup (map (@ci_id A) rc);
  rm_nl : NoDup (map (@li_id A) rl);
  rm_sc : forall c, In c rc -> sep (ci_base c) 2 b k;
  rm_sl : forall l, In l rl -> sep (li_index l) 1 b k;
  rm_sum : 2 * length rc + length rl + k = m_rows (e_state st);
}.

Section Removed.
Variables (st : est) (b k : nat) (rc : list clock_info) (rl : list link_info).
Hypothesis W : WF st.
Hypothesis R : removable st b k rc rl.

Lemma WF_removed : WF (removed_state st b k rc rl).
Proof.
  destruct R as [Hb Hrc Hrl Hnc Hnl Hsc Hsl Hsum]. unfold removed_state. wf_dims W.
  - (* wf_cids *) now rewrite map_map.
  - (* wf_lids *) now rewrite map_map.
  - (* wf_ext *) apply (wf_ext _ W).
  - (* wf_ext_int *) intros id Hid. rewrite map_map. intros Hc. apply (wf_ext_int _ W id Hid).
    apply in_map_iff in Hc. destruct Hc as [c [H1 H2]]. apply in_map_iff. exists c. auto.
  - (* wf_cb *) intros c' Hc. apply in_map_iff in Hc. destruct Hc as [c [<- Hc]].
    apply upd_idx_bound; auto. apply (wf_cb _ W), Hrc, Hc.
  - (* wf_lb *) intros l' Hl. apply in_map_iff in Hl. destruct Hl as [l [<- Hl]].
    apply upd_idx_bound; auto. apply (wf_lb _ W), Hrl, Hl.
  - (* wf_cc *) intros c1' c2' H1 H2 Hne.
    apply in_map_iff in H1. destruct H1 as [c1 [<- H1]].
    apply in_map_iff in H2. destruct H2 as [c2 [<- H2]].
    apply upd_idx_sep; auto. apply (wf_cc _ W); auto.
  - (* wf_cl *) intros c' l' H1 H2.
    apply in_map_iff in H1. destruct H1 as [c [<- H1]].
    apply in_map_iff in H2. destruct H2 as [l [<- H2]].
    apply upd_idx_sep; auto. apply (wf_cl _ W); auto.
  - (* wf_ll *) intros l1' l2' H1 H2 Hne.
    apply in_map_iff in H1. destruct H1 as [l1 [<- H1]].
    apply in_map_iff in H2. destruct H2 as [l2 [<- H2]].
    pose proof (wf_ll _ W l1 l2 (Hrl _ H1) (Hrl _ H2) Hne) as Hs.
    pose proof (upd_idx_sep b k _ 1 _ 1 (Hsl _ H1) (Hsl _ H2)) as Hu.
    unfold sep in Hu. cbn [upd_link li_index]. lia.
  - (* wf_sum *) rewrite !map_length. lia.
Qed.

(* a surviving row i moves to upd_idx b k i and keeps its value and variance *)
Lemma entry_removed i : i < m_rows (e_state st) -> sep i 1 b k ->
  entry F (removed_state st b k rc rl) (upd_idx b k i) = entry F st i.
Proof.
  intros Hi Hs.
  assert (Hi' : upd_idx b k i < m_rows (e_state st) - k)
    by (pose proof (upd_idx_bound b k i 1 (m_rows (e_state st)) Hs); pose proof (rm_in _ _ _ _ _ R); lia).
  rewrite (entry_ok _ _ WF_removed) by exact Hi'. rewrite (entry_ok _ _ W Hi).
  cbn [removed_state e_state e_unc].
  rewrite mget_mnew_vec by exact Hi'.
  rewrite mget_mnew by (rewrite ?(wf_urows _ W), ?(wf_ucols _ W); exact Hi').
  pose proof (upd_idx_back _ _ _ Hs) as Hback. cbv zeta.
  destruct (upd_idx b k i <? b); now rewrite Hback.
Qed.

(* an identifier that the kept lists resolve as st does keeps its reports *)
Lemma removed_clock_reports id : find (fun c => ci_id c =? id)%Z rc = get_clock_info st id ->
  clock_offset F (removed_state st b k rc rl) id = clock_offset F st id /\
  clock_frequency F (removed_state st b k rc rl) id = clock_frequency F st id.
Proof.
  intros Hf. apply (clock_reports_kept _ _ (upd_clock b k)).
  - rewrite get_clock_info_removed. now f_equal.
  - intros c Hin <-. pose proof (wf_cb _ W c Hin).
    rewrite (get_clock_info_unique _ _ W Hin) in Hf.
    apply find_some in Hf. pose proof (rm_sc _ _ _ _ _ R c (proj1 Hf)) as Hs.
    cbn [upd_clock ci_base]. rewrite <- (upd_idx_succ _ _ _ Hs).
    destruct (sep_rows _ _ _ Hs). split; apply entry_removed; auto; lia.
Qed.

Lemma removed_link_report id : find (fun l => linkid_eqb (li_id l) id) rl = get_link_info st id ->
  link_delay F (removed_state st b k rc rl) id = link_delay F st id.
Proof.
  intros Hf. apply (link_report_kept _ _ (upd_link b k)).
  - rewrite get_link_info_removed. now f_equal.
  - intros l Hin <-. pose proof (wf_lb _ W l Hin).
    rewrite (get_link_info_unique _ _ W Hin) in Hf.
    apply find_some in Hf. apply entry_removed; [lia|]. apply (rm_sl _ _ _ _ _ R), Hf.
Qed.
End Removed.

Lemma splice_vec_ok (m : matrix) s len : m_cols m = 1 -> s + len <= m_rows m ->
  splice_vec F m s len = Ok (mnew_vec (m_rows m - len)
     (fun row => if row <? s then mget F m row 0 else mget F m (row + len) 0)).
Proof.
  intros H1 H2. unfold splice_vec. rewrite H1.
  replace (m_rows m <? s + len) with false by (symmetry; apply Nat.ltb_ge; lia). reflexivity.
Qed.

Lemma splice_square_ok (m : matrix) s len : m_rows m = m_cols m -> s + len <= m_rows m ->
  splice_square F m s len = Ok (mnew (m_rows m - len) (m_cols m - len)
     (fun row col =>
        let row' := if row <? s then row else row + len in
        let col' := if col <? s then col else col + len in
        mget F m row' col')).
Proof.
  intros H1 H2. unfold splice_square. rewrite H1, Nat.eqb_refl.
  replace (m_cols m <? s + len) with false by (symmetry; apply Nat.ltb_ge; lia). reflexivity.
Qed.

Lemma splice_removed (st : est) b k rc rl : WF st -> b + k <= m_rows (e_state st) ->
  (do s <- splice_vec F (e_state st) b k;
   do u <- splice_square F (e_unc st) b k;
   Ok {| e_time := e_time st; e_state := s; e_unc := u;
         e_clocks := map (upd_clock b k) rc; e_ext := e_ext st; e_links := map (upd_link b k) rl |})
  = Ok (removed_state st b k rc rl).
Proof.
  intros W Hb. rewrite (splice_vec_ok _ _ _ (wf_cols _ W) Hb).
  rewrite splice_square_ok by (rewrite ?(wf_urows _ W), ?(wf_ucols _ W); auto). reflexivity.
Qed.

Lemma remove_clock_eq (st : est) id : WF st ->
  remove_clock F id st =
  match remove_first (fun c => ci_id c =? id)%Z (e_clocks st) with
  | None => Err E_UnknownClock
  | Some (removed, rest) => Ok (removed_state st (ci_base removed) 2 rest (e_links st))
  end.
Proof.
  intros W. unfold remove_clock.
  destruct (remove_first _ (e_clocks st)) as [[removed rest]|] eqn:Hr; [|reflexivity].
  destruct (remove_first_some _ _ _ _ Hr) as (_ & Hin & _).
  apply (splice_removed st _ 2 rest (e_links st) W (wf_cb _ W _ Hin)).
Qed.

Lemma remove_clock_shape (st : est) id st' : WF st -> remove_clock F id st = Ok st' ->
  exists removed rest,
    remove_first (fun c => ci_id c =? id)%Z (e_clocks st) = Some (removed, rest) /\
    st' = removed_state st (ci_base removed) 2 rest (e_links st).
Proof.
  intros W H. rewrite remove_clock_eq in H by exact W.
  destruct (remove_first _ (e_clocks st)) as [[removed rest]|]; [|discriminate].
  inversion H. eauto.
Qed.

Lemma remove_clock_removable (st : est) id removed rest : WF st ->
  remove_first (fun c => ci_id c =? id)%Z (e_clocks st) = Some (removed, rest) ->
  ci_id removed = id /\ (forall c, In c rest -> ci_id c <> id) /\
  removable st (ci_base removed) 2 rest (e_links st).
Proof.
  intros W Hr.
  destruct (remove_first_some _ _ _ _ Hr) as (Hp & Hin & Hsub & Hlen & _).
  destruct (remove_first_nodup _ (@ci_id A) _ _ _ Hr (wf_cids _ W)) as [Hn Hne].
  apply Z.eqb_eq in Hp. subst id. split; [reflexivity|]. split; [exact Hne|].
  pose proof (wf_sum _ W) as Hsum. rewrite Hlen in Hsum.
  constructor; auto using (wf_cb _ W), (wf_lids _ W); try lia.
  - intros c Hc. apply (wf_cc _ W); auto.
  - intros l Hl. pose proof (wf_cl _ W removed l Hin Hl) as Hs. unfold sep in *. lia.
Qed.

Lemma WF_remove_clock (st : est) id st' : WF st -> remove_clock F id st = Ok st' -> WF st'.
Proof.
  intros W H. destruct (remove_clock_shape _ _ _ W H) as (removed & rest & Hr & ->).
  apply (WF_removed _ _ _ _ _ W), (remove_clock_removable _ _ _ _ W Hr).
Qed.

Lemma remove_clock_preserves (st : est) id st' : WF st -> remove_clock F id st = Ok st' ->
  same_estimates_except_clock st st' id /\ e_time st' = e_time st /\ e_ext st' = e_ext st /\
  clock_offset F st' id = Err E_UnknownClock /\ clock_frequency F st' id = Err E_UnknownClock.
Proof.
  intros W H. destruct (remove_clock_shape _ _ _ W H) as (removed & rest & Hr & ->).
  destruct (remove_clock_removable _ _ _ _ W Hr) as (Hid & Hne & R).
  destruct (remove_first_some _ _ _ _ Hr) as (_ & _ & _ & _ & Hfind).
  split; [split|].
  - intros c Hc. apply (removed_clock_reports _ _ _ _ _ W R). apply Hfind, Z.eqb_neq. congruence.
  - intros l. now apply (removed_link_report _ _ _ _ _ W R).
  - split; [reflexivity|]. split; [reflexivity|].
    apply clock_reports_unknown. rewrite get_clock_info_removed.
    destruct (find _ rest) as [c|] eqn:Hf; auto.
    apply find_some in Hf. destruct Hf as [Hc1 Hc2]. apply Z.eqb_eq in Hc2. now destruct (Hne c Hc1).
Qed.

Lemma remove_link_eq (st : est) id : WF st ->
  remove_link F id st =
  match remove_first (fun l => linkid_eqb (li_id l) id) (e_links st) with
  | None => Err E_UnknownLink
  | Some (removed, rest) => Ok (removed_state st (li_index removed) 1 (e_clocks st) rest)
  end.
Proof.
  intros W. unfold remove_link.
  destruct (remove_first _ (e_links st)) as [[removed rest]|] eqn:Hr; [|reflexivity].
  destruct (remove_first_some _ _ _ _ Hr) as (_ & Hin & _).
  apply (splice_removed st _ 1 (e_clocks st) rest W (wf_lb _ W _ Hin)).
Qed.

Lemma remove_link_shape (st : est) id st' : WF st -> remove_link F id st = Ok st' ->
  exists removed rest,
    remove_first (fun l => linkid_eqb (li_id l) id) (e_links st) = Some (removed, rest) /\
    st' = removed_state st (li_index removed) 1 (e_clocks st) rest.
Proof.
  intros W H. rewrite remove_link_eq in H by exact W.
  destruct (remove_first _ (e_links st)) as [[removed rest]|]; [|discriminate].
  inversion H. eauto.
Qed.

Lemma remove_link_removable (st : est) id removed rest : WF st ->
  remove_first (fun l => linkid_eqb (li_id l) id) (e_links st) = Some (removed, rest) ->
  li_id removed = id /\ (forall l, In l rest -> li_id l <> id) /\
  removable st (li_index removed) 1 (e_clocks st) rest.
Proof.
  intros W Hr.
  destruct (remove_first_some _ _ _ _ Hr) as (Hp & Hin & Hsub & Hlen & _).
  destruct (remove_first_nodup _ (@li_id A) _ _ _ Hr (wf_lids _ W)) as [Hn Hne].
  apply linkid_eqb_eq in Hp. subst id. split; [reflexivity|]. split; [exact Hne|].
  pose proof (wf_sum _ W) as Hsum. rewrite Hlen in Hsum.
  constructor; auto using (wf_lb _ W), (wf_cids _ W); try lia.
  - intros c Hc. apply (wf_cl _ W); auto.
  - intros l Hl. pose proof (wf_ll _ W l removed (Hsub l Hl) Hin (Hne l Hl)). unfold sep. lia.
Qed.

Lemma WF_remove_link (st : est) id st' : WF st -> remove_link F id st = Ok st' -> WF st'.
Proof.
  intros W H. destruct (remove_link_shape _ _ _ W H) as (removed & rest & Hr & ->).
  apply (WF_removed _ _ _ _ _ W), (remove_link_removable _ _ _ _ W Hr).
Qed.

Lemma remove_link_preserves (st : est) id st' : WF st -> remove_link F id st = Ok st' ->
  same_estimates_except_link st st' id /\ e_time st' = e_time st /\ e_ext st' = e_ext st /\
  link_delay F st' id = Err E_UnknownLink.
Proof.
  intros W H. destruct (remove_link_shape _ _ _ W H) as (removed & rest & Hr & ->).
  destruct (remove_link_removable _ _ _ _ W Hr) as (Hid & Hne & R).
  destruct (remove_first_some _ _ _ _ Hr) as (_ & _ & _ & _ & Hfind).
  split; [split|].
  - intros c. now apply (removed_clock_reports _ _ _ _ _ W R).
  - intros l Hl. apply (removed_link_report _ _ _ _ _ W R). apply Hfind, linkid_eqb_neq. congruence.
  - split; [reflexivity|]. split; [reflexivity|].
    apply link_report_unknown. rewrite get_link_info_removed.
    destruct (find _ rest) as [l|] eqn:Hf; auto.
    apply find_some in Hf. destruct Hf as [Hc1 Hc2]. apply linkid_eqb_eq in Hc2. now destruct (Hne l Hc1).
Qed.

Definition shaped_like (st : est) (s u : matrix) : Prop :=
  m_rows s = m_rows (e_state st) /\ m_cols s = m_cols (e_state st) /\
  length (m_data s) = m_rows s * m_cols s /\
  m_rows u = m_rows (e_state st) /\ m_cols u = m_rows (e_state st) /\
  length (m_data u) = m_rows u * m_cols u.

Lemma WF_with_state (st : est) t s u : WF st -> shaped_like st s u -> WF (with_state st t s u).
Proof.
  intros W (H1 & H2 & H3 & H4 & H5 & H6). rewrite (wf_cols _ W) in H2. rewrite H2, Nat.mul_1_r in H3.
  rewrite H4, H5 in H6. destruct W.
  constructor; cbn [with_state e_state e_unc e_clocks e_ext e_links]; rewrite ?H1; auto.
  now rewrite H3.
Qed.

Lemma fold_mset_dims {X} (g : matrix -> X -> matrix) (l : list X) :
  (forall m x, m_rows (g m x) = m_rows m /\ m_cols (g m x) = m_cols m) ->
  forall m, m_rows (fold_left g l m) = m_rows m /\ m_cols (fold_left g l m) = m_cols m.
Proof.
  intros Hg. induction l as [|x l IH]; intros m; cbn; auto.
  destruct (IH (g m x)) as [H1 H2]. destruct (Hg m x) as [H3 H4]. split; congruence.
Qed.

(* under WF the dimension and index tests of progress_time hold: what is left is the test of the
   time, and a new vector and covariance of the old shape *)
Lemma progress_time_eq (st : est) new : WF st -> exists s u, shaped_like st s u /\
  progress_time F new st =
  if (ts_sub new (e_time st) <? 0)%Z then Err E_NonMonotonic
  else if (new =? e_time st)%Z then Ok st else Ok (with_state st new s u).
Proof.
  intros W. unfold progress_time. cbv zeta. rewrite (dims_ok_WF _ W).
  rewrite (proj2 (forallb_forall _ _)), (proj2 (forallb_forall _ _)); cbn [negb andb].
  2: { intros l Hl. pose proof (wf_lb _ W l Hl). apply Nat.ltb_lt. lia. }
  2: { intros c Hc. pose proof (wf_cb _ W c Hc). apply Nat.ltb_lt. unfold frequency_index. lia. }
  eexists. eexists. split; [|reflexivity].
  set (g := fun u c => mset u (offset_index c) (frequency_index c) _).
  destruct (fold_mset_dims g (e_clocks st) (fun m x => conj eq_refl eq_refl)
              (identity F (m_rows (e_state st)))) as [Hr Hc].
  unfold shaped_like. cbn [mmul madd mzip m_rows m_cols m_data transpose mnew]. rewrite !length_tab.
  cbn [identity mnew m_rows m_cols] in Hr, Hc. rewrite Hr. repeat split; reflexivity.
Qed.

Lemma progress_time_shape (st : est) new st' : WF st -> progress_time F new st = Ok st' ->
  (0 <= ts_sub new (e_time st))%Z /\ e_time st' = new /\
  (st' = st \/ exists s u, st' = with_state st new s u /\ shaped_like st s u).
Proof.
  intros W H. destruct (progress_time_eq st new W) as (s & u & Hs & E). rewrite E in H.
  destruct (Z.ltb_spec (ts_sub new (e_time st)) 0); [discriminate|]. split; [assumption|].
  destruct (Z.eqb_spec new (e_time st)); inversion H; subst; eauto 7.
Qed.

Lemma WF_progress_time (st : est) new st' : WF st -> progress_time F new st = Ok st' -> WF st'.
Proof.
  intros W H. destruct (progress_time_shape _ _ _ W H) as (_ & _ & [->|(s & u & -> & Hs)]); auto.
  now apply WF_with_state.
Qed.

(* the three absorb operations: row idx c of the clock's block is bumped, the time becomes t *)
Lemma absorb_shape (st : est) id (idx : clock_info -> nat) t ch st' :
  match get_clock_info st id with
  | None => Err E_UnknownClock
  | Some c => do s <- bump F st (idx c) ch; Ok (with_state st t s (e_unc st))
  end = Ok st' ->
  exists c s, get_clock_info st id = Some c /\ bump F st (idx c) ch = Ok s /\
              st' = with_state st t s (e_unc st).
Proof.
  destruct (get_clock_info st id) as [c|]; [|discriminate].
  destruct (bump F st _ ch) as [s| |] eqn:Hb; cbn [res_bind]; intros H; try discriminate.
  inversion H. eauto.
Qed.

Lemma bump_shape (st : est) i ch s : WF st -> bump F st i ch = Ok s ->
  i < m_rows (e_state st) /\ s = mset (e_state st) i 0 (fadd F (mget F (e_state st) i 0) ch) /\
  shaped_like st s (e_unc st).
Proof.
  intros W. unfold bump, in_range. destruct (Nat.ltb_spec i (m_rows (e_state st))); [|discriminate].
  cbn [andb]. destruct (_ <? _); [|discriminate]. intros E. inversion E.
  unfold shaped_like. cbn.
  rewrite length_upd, (wf_len _ W), (wf_cols _ W), (wf_urows _ W), (wf_ucols _ W), (wf_ulen _ W).
  repeat split; auto; lia.
Qed.

Lemma WF_bump (st : est) t i ch s : WF st -> bump F st i ch = Ok s ->
  WF (with_state st t s (e_unc st)).
Proof. intros W H. apply WF_with_state; auto. apply (bump_shape _ _ _ _ W H). Qed.

Lemma symmetrize_shape (m m' : matrix) : symmetrize F m = Ok m' ->
  m_rows m' = m_rows m /\ m_cols m' = m_rows m /\ length (m_data m') = m_rows m' * m_cols m'.
Proof.
  unfold symmetrize. destruct (Nat.eqb_spec (m_rows m) (m_cols m)); cbn [negb]; [|discriminate].
  intros H. inversion H. cbn. rewrite length_tab. repeat split; auto.
Qed.

Lemma measurement_shape (st : est) lid fwd v u dl st' : measurement F lid fwd v u dl st = Ok st' ->
  exists s' u', st' = with_state st (e_time st) s' u' /\ shaped_like st s' u'.
Proof.
  unfold measurement. cbv zeta. intros H. destr_if H; [discriminate|].
  do 3 inv_bind H. destr_if H; [discriminate|].
  apply bind_ok in H. destruct H as (unc' & Hs & H). inversion H.
  eexists. eexists. split; [reflexivity|]. apply symmetrize_shape in Hs. destruct Hs as (S1 & S2 & S3).
  unfold shaped_like.
  cbn [mmul madd msub mzip m_rows m_cols m_data transpose mnew identity] in *. rewrite !length_tab.
  repeat split; auto.
Qed.

Lemma WF_measurement (st : est) lid fwd v u dl st' : WF st ->
  measurement F lid fwd v u dl st = Ok st' -> WF st'.
Proof.
  intros W H. destruct (measurement_shape _ _ _ _ _ _ _ H) as (s & u' & -> & Hs).
  now apply WF_with_state.
Qed.

Lemma WF_apply (o : @op A) (st st' : est) : WF st -> apply F o st = Ok st' -> WF st'.
Proof.
  intros W H. destruct o; cbn [apply] in H.
  - (* OpProgress *) eapply WF_progress_time; eauto.
  - (* OpAbsorbFreq *) destruct (absorb_shape _ _ _ _ _ _ H) as (c & s & _ & Hb & ->). eapply WF_bump; eauto.
  - (* OpAbsorbOffset *) destruct (absorb_shape _ _ _ _ _ _ H) as (c & s & _ & Hb & ->). eapply WF_bump; eauto.
  - (* OpAbsorbSystem *) destruct (absorb_shape _ _ _ _ _ _ H) as (c & s & _ & Hb & ->). eapply WF_bump; eauto.
  - (* OpMeasure *) eapply WF_measurement; eauto.
  - (* OpAddExternal *) eapply WF_add_external; eauto.
  - (* OpRemoveExternal *) eapply WF_remove_external; eauto.
  - (* OpAddClock *) eapply WF_add_clock; eauto.
  - (* OpRemoveClock *) eapply WF_remove_clock; eauto.
  - (* OpAddLink *) eapply WF_add_link; eauto.
  - (* OpRemoveLink *) eapply WF_remove_link; eauto.
Qed.

Lemma WF_apply_keep (o : @op A) (st : est) : WF st -> WF (apply_keep F o st).
Proof.
  intros W. unfold apply_keep. destruct (apply F o st) eqn:H; auto. eapply WF_apply; eauto.
Qed.

Lemma WF_run_ops (ops : list (@op A)) : forall st : est, WF st -> WF (run_ops F ops st).
Proof.
  induction ops as [|o ops IH]; intros st W; cbn; auto. apply IH. now apply WF_apply_keep.
Qed.

(* what a successful operation does to the time (only progress_time and the system clock step
   change it) and to the set of internal clocks (only add_clock and remove_clock change it) *)
Lemma apply_frame (o : @op A) (st st' : est) : WF st -> apply F o st = Ok st' ->
  match o with
  | OpProgress t => e_time st' = t /\ (0 <= ts_sub t (e_time st))%Z
  | OpAbsorbSystem _ d => e_time st' = ts_add (e_time st) d
  | _ => e_time st' = e_time st
  end /\
  match o with
  | OpAddClock id _ _ _ _ _ => forall x, is_internal_clock st' x = is_internal_clock st x || (id =? x)%Z
  | OpRemoveClock id => forall x, x <> id -> is_internal_clock st' x = is_internal_clock st x
  | _ => forall x, is_internal_clock st' x = is_internal_clock st x
  end.
Proof.
  intros W H. destruct o; cbn [apply] in H.
  - (* OpProgress *) destruct (progress_time_shape _ _ _ W H) as (H1 & H2 & [->|(s & u & -> & _)]); auto.
  - (* OpAbsorbFreq *) destruct (absorb_shape _ _ _ _ _ _ H) as (c & s & _ & _ & ->). auto.
  - (* OpAbsorbOffset *) destruct (absorb_shape _ _ _ _ _ _ H) as (c & s & _ & _ & ->). auto.
  - (* OpAbsorbSystem *) destruct (absorb_shape _ _ _ _ _ _ H) as (c & s & _ & _ & ->). auto.
  - (* OpMeasure *) destruct (measurement_shape _ _ _ _ _ _ _ H) as (s & u' & -> & _). auto.
  - (* OpAddExternal *) destruct (add_external_shape _ _ _ H) as [_ ->]. auto.
  - (* OpRemoveExternal *) destruct (remove_external_shape _ _ _ H) as (x & e & _ & ->). auto.
  - (* OpAddClock *) destruct (add_clock_shape _ _ _ _ _ _ _ _ W H) as [_ ->]. split; [reflexivity|].
    intros x. unfold is_internal_clock. cbn [extended_state e_clocks]. rewrite existsb_app. cbn.
    now rewrite orb_false_r.
  - (* OpRemoveClock *) destruct (remove_clock_shape _ _ _ W H) as (r & rest & Hr & ->). split; [reflexivity|].
    intros x Hx. destruct (remove_first_some _ _ _ _ Hr) as (Hp & _ & _ & _ & Hfind).
    apply Z.eqb_eq in Hp. rewrite is_internal_removed. unfold is_internal_clock.
    rewrite !existsb_find, Hfind; [reflexivity|]. apply Z.eqb_neq. congruence.
  - (* OpAddLink *) destruct (add_link_shape _ _ _ _ _ _ W H) as (_ & _ & _ & ->). auto.
  - (* OpRemoveLink *) destruct (remove_link_shape _ _ _ W H) as (x & e & _ & ->). split; [reflexivity|].
    intros c. apply is_internal_removed.
Qed.

Definition bad_ident (o : @op A) (st : est) : bool :=
  match o with
  | OpProgress _ => false
  | OpAbsorbFreq id _ | OpAbsorbOffset id _ | OpAbsorbSystem id _ => negb (is_internal_clock st id)
  | OpMeasure lid fwd _ _ dl =>
      negb (is_known_clock st (dir_from lid fwd)) || negb (is_known_clock st (dir_to lid fwd))
      || (dl && negb (link_present st lid))
  | OpAddExternal id | OpAddClock id _ _ _ _ _ => is_known_clock st id
  | OpRemoveExternal id => negb (is_external_clock st id)
  | OpRemoveClock id => negb (is_internal_clock st id)
  | OpAddLink id _ _ _ =>
      negb (is_known_clock st (link_first id)) || negb (is_known_clock st (link_second id))
      || link_present st id
  | OpRemoveLink id => negb (link_present st id)
  end.

(* one step of building the projection row of a measurement: the entry of clock id is set in the
   1 x n row p unless the clock is external; the step fails exactly for an unknown clock *)
Lemma proj_clock_step (st : est) (p : matrix) id v (ext : bool) : WF st ->
  m_rows p = 1 -> m_cols p = m_rows (e_state st) ->
  let r := if ext then Ok p
           else match get_clock_info st id with
                | None => Err E_UnknownClock
                | Some c => if in_range p 0 (offset_index c)
                            then Ok (mset p 0 (offset_index c) v) else Panic panic_index
                end in
  if is_internal_clock st id || ext
  then exists p', r = Ok p' /\ m_rows p' = 1 /\ m_cols p' = m_rows (e_state st)
  else r = Err E_UnknownClock.
Proof.
  intros W H1 H2. cbv zeta. destruct ext; [rewrite orb_true_r; eauto|]. rewrite orb_false_r.
  destruct (get_clock_info st id) as [c|] eqn:Hc.
  - rewrite (get_clock_info_internal _ _ _ Hc). destruct (get_clock_info_some _ _ _ Hc) as [Hin _].
    pose proof (wf_cb _ W c Hin). unfold in_range, offset_index. rewrite H1, H2.
    rewrite (proj2 (Nat.ltb_lt (ci_base c) _)) by lia.
    eexists. split; [reflexivity|]. split; assumption.
  - apply get_clock_info_none in Hc. now rewrite Hc.
Qed.

Lemma bad_ident_fails (o : @op A) (st : est) : WF st -> bad_ident o st = true ->
  exists e, apply F o st = Err e.
Proof.
  intros W H. destruct o; cbn [bad_ident apply] in *.
  - (* OpProgress *) discriminate.
  - (* OpAbsorbFreq *) apply negb_true_iff, get_clock_info_none in H. unfold absorb_frequency_steer. rewrite H. eauto.
  - (* OpAbsorbOffset *) apply negb_true_iff, get_clock_info_none in H. unfold absorb_offset_change. rewrite H. eauto.
  - (* OpAbsorbSystem *) apply negb_true_iff, get_clock_info_none in H. unfold absorb_system_clock_offset_change. rewrite H. eauto.
  - (* OpMeasure *) unfold measurement. cbv zeta.
    destruct (is_external_clock st (dir_from lid forward) && is_external_clock st (dir_to lid forward)); eauto.
    pose proof (proj_clock_step st (mzero F 1 (m_rows (e_state st))) (dir_from lid forward) (fm1 F)
                  (is_external_clock st (dir_from lid forward)) W eq_refl eq_refl) as S1.
    cbv zeta in S1. fold (is_known_clock st (dir_from lid forward)) in S1.
    destruct (is_known_clock st (dir_from lid forward)); [|rewrite S1; cbn; eauto].
    destruct S1 as (p1 & -> & R1 & C1). cbn [res_bind].
    pose proof (proj_clock_step st p1 (dir_to lid forward) (f1 F)
                  (is_external_clock st (dir_to lid forward)) W R1 C1) as S2.
    cbv zeta in S2. fold (is_known_clock st (dir_to lid forward)) in S2.
    destruct (is_known_clock st (dir_to lid forward)); [|rewrite S2; cbn; eauto].
    destruct S2 as (p2 & -> & _). cbn [res_bind].
    cbn [negb orb] in H. apply andb_true_iff in H. destruct H as [-> Hl].
    apply negb_true_iff, find_none_existsb in Hl. unfold get_link_info. rewrite Hl. cbn. eauto.
  - (* OpAddExternal *) unfold add_external_clock. unfold is_known_clock in H.
    destruct (is_internal_clock st id); [eauto|]. cbn in H. rewrite H. eauto.
  - (* OpRemoveExternal *) apply negb_true_iff, remove_first_none in H. unfold remove_external_clock. rewrite H. eauto.
  - (* OpAddClock *) rewrite add_clock_eq, H by exact W. eauto.
  - (* OpRemoveClock *) apply negb_true_iff, remove_first_none in H. rewrite remove_clock_eq, H by exact W. eauto.
  - (* OpAddLink *) rewrite add_link_eq by exact W.
    destruct (is_known_clock st (link_first id)); cbn [negb]; eauto.
    destruct (is_known_clock st (link_second id)); cbn [negb]; eauto.
    cbn in H. rewrite H. eauto.
  - (* OpRemoveLink *) apply negb_true_iff, remove_first_none in H. rewrite remove_link_eq, H by exact W. eauto.
Qed.

Definition unrelated_kept (o : @op A) (st st' : est) : Prop :=
  match o with
  | OpAddClock id _ _ _ _ _ | OpRemoveClock id => same_estimates_except_clock st st' id
  | OpAddLink id _ _ _ | OpRemoveLink id => same_estimates_except_link st st' id
  | OpAddExternal _ | OpRemoveExternal _ => same_estimates st st'
  | _ => True
  end.

Lemma apply_unrelated_kept (o : @op A) (st st' : est) : WF st -> apply F o st = Ok st' ->
  unrelated_kept o st st'.
Proof.
  intros W H. destruct o; cbn [apply unrelated_kept] in *; auto.
  - (* OpAddExternal *) apply (external_preserves _ id _ (or_introl H)).
  - (* OpRemoveExternal *) apply (external_preserves _ id _ (or_intror H)).
  - (* OpAddClock *) apply (add_clock_preserves _ _ _ _ _ _ _ _ W H).
  - (* OpRemoveClock *) apply (remove_clock_preserves _ _ _ W H).
  - (* OpAddLink *) apply (add_link_preserves _ _ _ _ _ _ W H).
  - (* OpRemoveLink *) apply (remove_link_preserves _ _ _ W H).
Qed.

End WithOps.
