(* The reach register and the reset decision of Model/SrcCore.v (C11).  The register is the
   8-attempt window of the ghost record of a history ([reach_abs], kept by every step:
   [reach_abs_step]); [reset_due_iff] says when the reset is due, [reset_nothing_further] what
   follows it; the deny flag ([deny_flag_from]) and sources that keep answering
   ([prompt_no_reset]) come last. *)
From V Require Import Model.SrcSpec Proofs.SrcCore.
From V Require Import Gen.ConstSource.

(* census of the code sites that touch the modelled fields (constants translator):
   one shift, one set-bit (+1 in a unit test), two writes of the deny flag *)
Lemma reach_site_census :
  N_REACH_POLL_CALLS = 1 /\ N_REACH_RECEIVED_CALLS = 2 /\ N_DENY_FLAG_WRITES = 2.
Proof. repeat split. Qed.

Lemma bits_range : forall n h, 0 <= bits n h < 2 ^ Z.of_nat n.
Proof.
  induction n; intros h; [simpl; lia|].
  destruct h as [|b t]; [simpl bits; split; [lia|apply Z.pow_pos_nonneg; lia]|].
  cbn [bits]. rewrite Nat2Z.inj_succ, Z.pow_succ_r by lia.
  specialize (IHn t). destruct b; lia.
Qed.

Lemma bits_mod : forall n h, bits (S n) h mod 2 ^ Z.of_nat n = bits n h.
Proof.
  induction n; intros h.
  - simpl. rewrite Z.mod_1_r. destruct h; reflexivity.
  - destruct h as [|b t]; [reflexivity|].
    change (bits (S (S n)) (b :: t)) with ((if b then 1 else 0) + 2 * bits (S n) t).
    change (bits (S n) (b :: t)) with ((if b then 1 else 0) + 2 * bits n t).
    rewrite <- (IHn t). rewrite Nat2Z.inj_succ, Z.pow_succ_r by lia.
    pose proof (bits_range (S n) t) as [Hx _].
    assert (0 < 2 ^ Z.of_nat n) by (apply Z.pow_pos_nonneg; lia).
    rewrite (Z.add_comm _ (2 * bits (S n) t)), Z.add_mul_mod_distr_l by (destruct b; lia). lia.
Qed.

(* reach.poll(): shifting the register = recording a new, unanswered attempt *)
Lemma bits_shift : forall h, (bits 8 h * 2) mod 256 = bits 8 (false :: h).
Proof.
  intros. change (bits 8 (false :: h)) with (0 + 2 * bits 7 h).
  rewrite <- (bits_mod 7 h). change (2 ^ Z.of_nat 7) with 128.
  pose proof (bits_range 8 h). lia.
Qed.

(* received_packet(): setting bit 0 = marking the newest attempt answered *)
Lemma bits_set : forall b t, Z.lor (bits 8 (b :: t)) 1 = bits 8 (true :: t).
Proof.
  intros. rewrite lor1_val.
  change (bits 8 (b :: t)) with ((if b then 1 else 0) + 2 * bits 7 t).
  change (bits 8 (true :: t)) with (1 + 2 * bits 7 t).
  destruct b; lia.
Qed.

Lemma bits_zero_iff : forall n h, bits n h = 0 <-> none_answered n h.
Proof.
  unfold none_answered. induction n; intros h.
  - simpl. split; auto. intros _ i Hi. lia.
  - destruct h as [|b t].
    + simpl. split; auto. intros _ i _. destruct i; reflexivity.
    + cbn [bits]. pose proof (bits_range n t) as Hrg. split.
      * intros H i Hi. destruct b; [lia|]. destruct i; [reflexivity|].
        simpl. apply IHn; lia.
      * intros H. pose proof (H 0%nat ltac:(lia)) as H0. simpl in H0. subst b.
        assert (bits n t = 0); [|lia]. apply IHn. intros i Hi. apply (H (S i)). lia.
Qed.

Lemma tz_zero : forall n, tz n 0 = Z.of_nat n.
Proof. induction n; [reflexivity|]. cbn [tz]. change (Z.odd 0) with false. cbn iota. change (0 / 2) with 0. lia. Qed.

Lemma since_last_nonneg : forall h k, since_last h = Some k -> 0 <= k.
Proof.
  induction h as [|b t IH]; simpl; intros k E; [discriminate|].
  destruct b; [inversion E; lia|]. destruct (since_last t) as [z|]; simpl in E; [|discriminate].
  inversion E. specialize (IH z eq_refl). lia.
Qed.

Lemma tz_bits : forall n h,
  tz n (bits n h) = match since_last h with Some k => Z.min (Z.of_nat n) k | None => Z.of_nat n end.
Proof.
  induction n; intros h.
  - simpl. destruct (since_last h) as [k|] eqn:E; auto.
    apply since_last_nonneg in E. lia.
  - destruct h as [|b t].
    + apply tz_zero.
    + cbn [bits since_last tz]. rewrite Z.odd_add_mul_2. destruct b; cbn [Z.odd]; [lia|].
      replace ((0 + 2 * bits n t) / 2) with (bits n t) by lia.
      rewrite IHn. destruct (since_last t); cbn [option_map]; lia.
Qed.

Section ReachProofs.
Context {C : Type}.
Variable dflt : C.
Variable clen : C -> Z.

Notation src := (src C).
Notation event := (event C).
Notation action := (action C).
Notation step := (step dflt clen).
Notation run := (run dflt clen).
Notation final := (final dflt clen).
Notation handle_timer := (handle_timer dflt clen).
Notation hist_run := (hist_run dflt clen).

Definition reach_abs (h : list bool) (st : src) : Prop :=
  reach st = bits 8 h /\ tries st = Z.min (Z.of_nat (length h)) usize_max /\
  (pending st = true -> h <> []).

Lemma reach_abs_new : forall b, reach_abs [] (src_new dflt b).
Proof. intros. unfold reach_abs, src_new; cbn [reach tries pending]. repeat split; try discriminate. Qed.

Lemma reach_abs_step : forall h st e, reach_abs h st ->
  reach_abs (hist_step h st e) (snd (step st e)).
Proof.
  intros h st e Ha. pose proof Ha as (Hr & Ht & Hp).
  destruct (step_fields dflt clen st e) as (Er & Et & _ & Ep & _). revert Er Et Ep.
  destruct e; cbn [hist_step]; intros Er Et Ep.
  - destruct (reset_due st) eqn:Hd.
    + cbn [step]. rewrite reset_action by assumption. exact Ha.
    + unfold reach_abs. rewrite Er, Et, Hr, Ht. split; [apply bits_shift|]. split; [|discriminate].
      cbn [length]. lia.
  - unfold reach_abs. rewrite Er, Et, Ep. destruct (pending st).
    + destruct h as [|b t]; [exfalso; apply Hp; auto|].
      rewrite Hr. split; [apply bits_set|]. split; [exact Ht|discriminate].
    + split; [exact Hr|]. split; [exact Ht|discriminate].
  - unfold reach_abs. rewrite Er, Et, Ep. exact Ha.
  - exact Ha.
  - unfold reach_abs. rewrite Er, Et, Ep. exact Ha.
Qed.

Lemma hist_run_cons : forall h st e r,
  hist_run h st (e :: r) = hist_run (hist_step h st e) (snd (step st e)) r.
Proof. reflexivity. Qed.

Lemma reach_abs_run : forall evs h st, reach_abs h st ->
  reach_abs (hist_run h st evs) (final st evs).
Proof.
  induction evs as [|e r IH]; intros h st H; [exact H|].
  rewrite hist_run_cons, final_cons. apply IH. apply reach_abs_step. exact H.
Qed.

Lemma reset_due_record : forall h st, reach_abs h st ->
  (reset_due st = true <-> (3 <= length h)%nat /\ none_answered 8 h).
Proof.
  intros h st (Hr & Ht & _). unfold reset_due, STARTUP_TRIES_THRESHOLD.
  rewrite <- (bits_zero_iff 8 h), <- Hr. unfold usize_max in Ht. split.
  - intros H. apply andb_prop in H. destruct H as [H1 H2]. split; lia.
  - intros [H1 H2]. apply andb_true_intro. split; lia.
Qed.

(* records that can arise: a fourth attempt is only made after an answer *)
Definition hist_ok (h : list bool) : Prop := (length h <= 3)%nat \/ In true h.

Lemma none_answered_no_true : forall h, none_answered (length h) h -> ~ In true h.
Proof.
  unfold none_answered. intros h H Hin. apply In_nth with (d := false) in Hin.
  destruct Hin as (i & Hi & E). rewrite H in E by auto. discriminate.
Qed.

Lemma hist_ok_step : forall h st e, reach_abs h st -> hist_ok h -> hist_ok (hist_step h st e).
Proof.
  intros h st e Ha Hk. destruct e; cbn [hist_step]; auto.
  - destruct (reset_due st) eqn:Hd; auto.
    assert (~ ((3 <= length h)%nat /\ none_answered 8 h)) as Hn.
    { intro X. apply (reset_due_record h st Ha) in X. congruence. }
    destruct (Nat.le_gt_cases 3 (length h)) as [H3|H3].
    + right. right. destruct Hk as [Hk|Hk]; auto.
      (* length exactly 3 and not all unanswered *)
      destruct (in_dec Bool.bool_dec true h) as [Hin|Hnin]; auto. exfalso. apply Hn. split; auto.
      intros i _. destruct (nth_in_or_default i h false) as [Hi|Hi]; auto.
      destruct (nth i h false) eqn:E; auto. exfalso. apply Hnin. exact Hi.
    + left. simpl. lia.
  - destruct (pending st); auto. destruct h as [|b t]; auto. right. left. reflexivity.
Qed.

Lemma hist_ok_run : forall evs h st, reach_abs h st -> hist_ok h -> hist_ok (hist_run h st evs).
Proof.
  induction evs as [|e r IH]; intros h st Ha Hk; [exact Hk|].
  rewrite hist_run_cons. apply IH; [apply reach_abs_step; auto|apply hist_ok_step; auto].
Qed.

(* the reset is due exactly after three unanswered attempts from the start, or eight in a row *)
Theorem reset_due_iff : forall evs b,
  let st := final (src_new dflt b) evs in
  let h := hist_run [] (src_new dflt b) evs in
  (reset_due st = true <-> (3 <= length h)%nat /\ none_answered 8 h) /\
  ((3 <= length h)%nat /\ none_answered 8 h <->
   h = [false; false; false] \/ ((8 <= length h)%nat /\ none_answered 8 h)).
Proof.
  intros. pose proof (reach_abs_run evs [] _ (reach_abs_new b)) as Ha. fold st h in Ha.
  assert (hist_ok h) as Hk by (apply hist_ok_run; [apply reach_abs_new|left; simpl; lia]).
  split; [apply reset_due_record; auto|]. split.
  - intros [H3 Hn]. destruct (Nat.le_gt_cases 8 (length h)) as [H8|H8]; [right; auto|]. left.
    assert (~ In true h) as Hnt.
    { apply none_answered_no_true. intros i Hi. apply Hn. lia. }
    destruct Hk as [Hk|Hk]; [|contradiction].
    destruct h as [|a [|b0 [|c [|d t]]]]; simpl in *; try lia.
    pose proof (Hn 0%nat ltac:(lia)). pose proof (Hn 1%nat ltac:(lia)). pose proof (Hn 2%nat ltac:(lia)).
    simpl in *. subst. reflexivity.
  - intros [E|[H8 Hn]]; [rewrite E; split; [simpl; lia|]|split; [lia|auto]].
    intros i _. destruct i as [|[|[|[|i]]]]; reflexivity.
Qed.

(* a due reset stays due, and nothing but the reset happens, until a usable answer arrives *)
Lemma due_step : forall st e, reset_due st = true ->
  match e with Usable _ => False | _ => True end ->
  reset_due (snd (step st e)) = true /\
  (fst (step st e) = [] \/ fst (step st e) = [Reset] \/ fst (step st e) = [Demobilize]).
Proof.
  intros st e Hd He. destruct e; try contradiction; cbn [step]; auto.
  - rewrite reset_action by assumption. cbn [fst snd]. destruct (deny st); auto.
  - unfold handle_deny. destruct (pending st); auto. destruct (nts st); auto.
Qed.

(* nothing further is sent: until a usable answer arrives every event yields no action, or
   the single action Reset or Demobilize (C11_nothing_further) *)
Theorem reset_nothing_further : forall evs st, reset_due st = true -> no_usable evs ->
  forall a s', In (a, s') (run st evs) -> a = [] \/ a = [Reset] \/ a = [Demobilize].
Proof.
  induction evs as [|e r IH]; intros st Hd Hn a s' Ho; [destruct Ho|]. rewrite run_cons in Ho.
  destruct (due_step st e Hd (Hn e (or_introl eq_refl))) as [Hd' Ha].
  destruct Ho as [E|Ho]; [injection E as <- _; exact Ha|].
  apply (IH _ Hd') with (s' := s'); [intros x Hx; apply Hn; right; exact Hx|exact Ho].
Qed.

(* in particular no event yields only requests *)
Theorem reset_silent : forall evs st, reset_due st = true -> no_usable evs ->
  forall o, In o (run st evs) ->
    forallb is_send (fst o) = false \/ fst o = [] .
Proof.
  intros evs st Hd Hn [a s'] Ho. cbn [fst].
  destruct (reset_nothing_further evs st Hd Hn a s' Ho) as [-> |[-> | ->]]; auto.
Qed.

Lemma step_plain : forall st e, nts st = None -> nts (snd (step st e)) = None.
Proof.
  intros st e Hs. destruct (step_fields dflt clen st e) as (_ & _ & _ & _ & ->). rewrite Hs.
  destruct e; try reflexivity; [destruct (reset_due st)|destruct (pending st)]; reflexivity.
Qed.

Lemma plain_final : forall evs st, nts st = None -> nts (final st evs) = None.
Proof.
  induction evs as [|e r IH]; intros st Hs; [assumption|]. rewrite final_cons. apply IH, step_plain, Hs.
Qed.

Lemma timer_plain : forall st, nts st = None -> reset_due st = false ->
  handle_timer st = ([SendPlain], mkSrc ((reach st * 2) mod 256) (Z.min (tries st + 1) usize_max)
                                     (deny st) true None).
Proof. intros st Hs Hd. unfold SrcCore.handle_timer. rewrite Hd, Hs. reflexivity. Qed.

(* only a timer makes a plain source act *)
Lemma plain_untimed : forall st e, nts st = None -> e <> Timer -> fst (step st e) = [].
Proof.
  intros st e Hs H. destruct e; [congruence|..]; cbn [step]; unfold handle_usable, handle_deny;
    try destruct (pending st); rewrite ?Hs; reflexivity.
Qed.

(* while the flag is set a request is outstanding *)
Lemma deny_pending_step : forall st e, (deny st = true -> pending st = true) ->
  deny (snd (step st e)) = true -> pending (snd (step st e)) = true.
Proof.
  intros st e H. destruct (step_fields dflt clen st e) as (_ & _ & -> & -> & _). destruct e; auto.
  - intros D. rewrite (H D). reflexivity.
  - destruct (deny st); [rewrite H by reflexivity|]; discriminate.
  - destruct (deny st); [auto|]. destruct (pending st); auto.
Qed.

Lemma deny_pending : forall evs st, (deny st = true -> pending st = true) ->
  deny (final st evs) = true -> pending (final st evs) = true.
Proof.
  induction evs as [|e r IH]; intros st H; [exact H|]. rewrite final_cons. apply IH, deny_pending_step, H.
Qed.

Lemma deny_kept : forall evs st, nts st = None -> deny st = true -> no_usable evs ->
  deny (final st evs) = true.
Proof.
  induction evs as [|e r IH]; intros st Hs Hd Hn; [exact Hd|]. rewrite final_cons.
  apply IH; [apply step_plain, Hs| |intros x Hx; apply Hn; right; exact Hx].
  destruct (step_fields dflt clen st e) as (_ & _ & -> & _). rewrite Hd.
  pose proof (Hn e (or_introl eq_refl)) as He. destruct e; try reflexivity. contradiction.
Qed.

Lemma no_usable_snoc : forall (e2 : list event) e, no_usable e2 ->
  match e with Usable _ => False | _ => True end -> no_usable (e2 ++ [e]).
Proof.
  intros e2 e Hn He x Hx. apply in_app_or in Hx. destruct Hx as [Hx|[<-|[]]]; [apply Hn|]; assumption.
Qed.

(* for a plain source the flag says: an (unauthenticated) DENY/RSTR answer to the
   outstanding request was seen and no usable answer since *)
Theorem deny_flag_from : forall st0 evs, nts st0 = None -> deny st0 = false ->
  (deny (final st0 evs) = true <->
   exists e1 e2, evs = e1 ++ DenyKiss :: e2 /\ pending (final st0 e1) = true /\ no_usable e2).
Proof.
  intros st0 evs Hs D0.
  assert (Hplain : forall e, nts (final st0 e) = None) by (intros e; apply plain_final, Hs).
  assert (Hdp : forall e, deny (final st0 e) = true -> pending (final st0 e) = true)
    by (intros e; apply deny_pending; rewrite D0; discriminate).
  split.
  - (* by induction from the right: the flag after the last event, from the flag before it *)
    induction evs as [|e r IH] using rev_ind; intros Hd; [cbn in Hd; congruence|].
    rewrite final_app in Hd. cbn [SrcCore.final fold_left] in Hd.
    destruct (step_fields dflt clen (final st0 r) e) as (_ & _ & Ed & _).
    rewrite Ed, Hplain in Hd. clear Ed.
    assert (match e with Usable _ => False | _ => True end -> deny (final st0 r) = true ->
            exists e1 e2, r ++ [e] = e1 ++ DenyKiss :: e2 /\
              pending (final st0 e1) = true /\ no_usable e2) as Keep.
    { intros He Hd'. destruct (IH Hd') as (e1 & e2 & -> & Hp & Hn).
      exists e1, (e2 ++ [e]). rewrite <- app_assoc. repeat split; auto.
      apply no_usable_snoc; assumption. }
    destruct e; try (apply (Keep I Hd)).
    + apply andb_prop in Hd. destruct Hd as [Hd Hp]. rewrite (Hdp r Hd) in Hp. discriminate.
    + exists r, []. repeat split; [|intros x []].
      destruct (deny (final st0 r)) eqn:D; [auto|].
      destruct (pending (final st0 r)); [reflexivity|discriminate].
  - intros (e1 & e2 & -> & Hp & Hn). rewrite final_app, final_cons.
    apply deny_kept; [apply step_plain, Hplain| |assumption].
    destruct (step_fields dflt clen (final st0 e1) DenyKiss) as (_ & _ & -> & _).
    rewrite Hp, Hplain. apply orb_true_r.
Qed.

(* not awaiting: never polled, or the newest attempt was answered; awaiting: a request
   is outstanding *)
Definition prompt_inv (aw : bool) (st : src) : Prop :=
  nts st = None /\ if aw then pending st = true else (tries st = 0 \/ Z.odd (reach st) = true).

Lemma prompt_no_reset : forall evs aw st, prompt_inv aw st -> prompt aw evs ->
  forall o, In o (run st evs) -> existsb is_reset (fst o) = false.
Proof.
  induction evs as [|e r IH]; intros aw st (Hs & Hi) Hp o Ho; [destruct Ho|].
  rewrite run_cons in Ho. pose proof (step_plain st e Hs) as Hs'.
  destruct (step_fields dflt clen st e) as (Er & Et & _ & Ep & _). revert Er Et Ep Ho.
  destruct e; cbn [prompt] in Hp; intros Er Et Ep Ho.
  (* DenyKiss, Other, StoreCookie: no action, and nothing the invariant mentions moves *)
  3-5: rewrite plain_untimed in Ho by (assumption || discriminate);
    (destruct Ho as [<-|Ho]; [reflexivity|]); refine (IH aw _ _ Hp o Ho); split; [assumption|];
    rewrite Er, Et, Ep; exact Hi.
  - (* not awaiting, so the reset is not due and the source polls *)
    destruct Hp as [-> Hp].
    assert (reset_due st = false) as Hd.
    { unfold reset_due, STARTUP_TRIES_THRESHOLD. destruct Hi as [Hi|Hi]; [rewrite Hi; apply andb_false_r|].
      destruct (Z.eqb_spec (reach st) 0) as [E|E]; [rewrite E in Hi; discriminate|reflexivity]. }
    cbn [step] in *. rewrite (timer_plain st Hs Hd) in *. cbn [fst snd] in *.
    destruct Ho as [<-|Ho]; [reflexivity|]. refine (IH true _ _ Hp o Ho). split; reflexivity.
  - rewrite plain_untimed in Ho by (assumption || discriminate).
    destruct Ho as [<-|Ho]; [reflexivity|]. refine (IH false _ _ Hp o Ho). split; [assumption|].
    rewrite Er, Et.
    assert (Z.odd (Z.lor (reach st) 1) = true) as Ho1
      by (rewrite lor1_val, Z.add_comm, Z.odd_add_mul_2; reflexivity).
    destruct aw; [rewrite Hi; auto|]. destruct (pending st); auto.
Qed.

End ReachProofs.
