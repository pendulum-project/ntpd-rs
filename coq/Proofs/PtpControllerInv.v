(* The invariant of the modelled controller over every history of the operations of
   Model/PtpControllerRun.v: the estimator is well formed (Proofs/Estimator.WF), the steered
   clocks are pairwise distinct and all internal clocks of the estimator. *)
From V Require Import Model.PtpControllerRun Proofs.Common Proofs.Estimator Proofs.PtpController.

(* the operation neither adds nor removes a clock *)
Definition clock_neutral (o : fop) : bool :=
  match o with OpAddClock _ _ _ _ _ _ | OpRemoveClock _ => false | _ => true end.

(* from st to st' the estimator stays well formed and keeps its set of internal clocks: what every
   sequence of operations that neither add nor remove a clock does *)
Definition keeps_clocks (st st' : fest) : Prop :=
  WF st -> WF st' /\ forall id, is_internal_clock st' id = is_internal_clock st id.

Lemma kc_refl st : keeps_clocks st st.
Proof. split; auto. Qed.

Lemma kc_trans a b c : keeps_clocks a b -> keeps_clocks b c -> keeps_clocks a c.
Proof.
  intros H1 H2 W. destruct (H1 W) as [W1 E1]. destruct (H2 W1) as [W2 E2].
  split; auto. intros id. now rewrite E2.
Qed.

Lemma kc_step (o : fop) (st st' : fest) : clock_neutral o = true -> apply FO o st = Ok st' ->
  keeps_clocks st st'.
Proof.
  intros Hn H W. split; [exact (WF_apply FO _ _ _ W H)|].
  destruct (apply_frame FO _ _ _ W H) as [_ Hi]. now destruct o.
Qed.

Lemma on_est_kc (o : fop) : clock_neutral o = true -> forall f f', on_est (apply FO o) f = Ok f' ->
  keeps_clocks (f_est f) (f_est f').
Proof. intros Hn f f' H. destruct (on_est_ok _ _ _ H) as (e & E & ->). exact (kc_step o _ _ Hn E). Qed.

(* the shape shared by f_remove_link, f_activate and f_deactivate: the estimator operation is
   applied for a tracked link only *)
Lemma maybe_est_kc (b : bool) (o : fop) ls f f' : clock_neutral o = true ->
  (if b then do e <- apply FO o (f_est f); Ok {| f_links := ls; f_est := e |}
   else Ok {| f_links := ls; f_est := f_est f |}) = Ok f' ->
  keeps_clocks (f_est f) (f_est f').
Proof.
  intros Hn H. destruct b; [|inversion H; apply kc_refl].
  apply bind_ok in H. destruct H as (e & E & H). inversion H. exact (kc_step o _ _ Hn E).
Qed.

Lemma f_remove_link_kc id f f' : f_remove_link id f = Ok f' -> keeps_clocks (f_est f) (f_est f').
Proof.
  unfold f_remove_link. destruct (remove_first _ _) as [[l rest]|]; [|discriminate].
  now apply (maybe_est_kc _ (OpRemoveLink id)).
Qed.

Lemma f_add_link_est tr a b n d f r : f_add_link tr a b n d f = Ok r -> f_est (fst r) = f_est f.
Proof.
  unfold f_add_link. cbv zeta. intros H. repeat (destr_if H; [discriminate|]). inversion H. reflexivity.
Qed.

Lemma f_activate_kc l delay noise f f1 : f_activate l delay noise f = Ok f1 ->
  keeps_clocks (f_est f) (f_est f1).
Proof.
  unfold f_activate. destruct (fl_active l); [intros H; inversion H; apply kc_refl|].
  now apply (maybe_est_kc _ (OpAddLink (fl_id l) delay noise (fl_decay l))).
Qed.

Lemma f_deactivate_kc l f f1 : f_deactivate l f = Ok f1 -> keeps_clocks (f_est f) (f_est f1).
Proof.
  unfold f_deactivate. destruct (fl_active l); [|intros H; inversion H; apply kc_refl].
  now apply (maybe_est_kc _ (OpRemoveLink (fl_id l))).
Qed.

Lemma f_measurement_kc o id fwd v u f f' : f_measurement o id fwd v u f = Ok f' ->
  keeps_clocks (f_est f) (f_est f').
Proof.
  unfold f_measurement. destruct (find _ (f_links f)) as [l|]; [|discriminate].
  destruct (if fl_tracked l then mo_estimates o else Some (0%float, 0%float)) as [[delay noise]|];
    [|intros H; inversion H; apply kc_refl].
  assert (Hboth : (do f1 <- f_activate l delay noise f; f_measure l fwd v u noise f1) = Ok f' ->
                  keeps_clocks (f_est f) (f_est f')).
  { intros H. apply bind_ok in H. destruct H as (fa & Ea & H).
    exact (kc_trans _ _ _ (f_activate_kc _ _ _ _ _ Ea) (on_est_kc (OpMeasure _ _ _ _ _) eq_refl _ _ H)). }
  destruct (fl_external l); auto.
  destruct (mo_consensus o) as [[|]|]; auto.
  - apply f_deactivate_kc.
  - intros H; inversion H. apply kc_refl.
Qed.

Lemma apply_change_kc id chg flt flt' : apply_change id chg flt = Ok flt' ->
  keeps_clocks (f_est flt) (f_est flt').
Proof.
  destruct chg as [ch|ch|d]; cbn [apply_change]; intros H.
  - (* FreqChange *) exact (on_est_kc (OpAbsorbFreq id ch) eq_refl _ _ H).
  - (* OffsetChange *) exact (on_est_kc (OpAbsorbOffset id ch) eq_refl _ _ H).
  - (* SystemStep *) exact (on_est_kc (OpAbsorbSystem id d) eq_refl _ _ H).
Qed.

Lemma steer_loop_kc old : forall ids index ans acc acc',
  steer_loop old index ids ans acc = Ok acc' -> keeps_clocks (f_est (fst acc)) (f_est (fst acc')).
Proof.
  induction ids as [|id ids IH]; intros index ans acc acc' H.
  - inversion H. apply kc_refl.
  - destruct (steer_loop_cons _ _ _ _ _ _ _ H) as (dc & flt1 & _ & Ha & Hrec).
    exact (kc_trans _ _ _ (apply_change_kc _ _ _ _ Ha) (IH _ _ _ _ Hrec)).
Qed.

Record CtlWF (c : ctl) : Prop := {
  cw_est : WF (f_est (c_filter c));
  cw_nodup : NoDup (c_clocks c);
  cw_int : forall id, In id (c_clocks c) -> is_internal_clock (f_est (c_filter c)) id = true;
}.

Lemma CtlWF_kc c f' : CtlWF c -> keeps_clocks (f_est (c_filter c)) (f_est f') -> CtlWF (with_filter c f').
Proof.
  intros [W N I] H. destruct (H W) as [W' Hi].
  constructor; cbn; auto. intros id Hin. rewrite Hi. auto.
Qed.

Lemma CtlWF_add c id ov ou fv fu w c' : CtlWF c ->
  (do f <- f_add_clock id ov ou fv fu w (c_filter c);
   Ok {| c_clocks := c_clocks c ++ [id]; c_filter := f |}) = Ok c' ->
  CtlWF c'.
Proof.
  intros [W N I] H. apply bind_ok in H. destruct H as (f' & Ef & H). inversion H; subst c'.
  destruct (on_est_ok _ _ _ Ef) as (e & Ee & ->).
  destruct (add_clock_shape FO _ _ _ _ _ _ _ _ W Ee) as [Hk _].
  apply orb_false_iff in Hk. destruct Hk as [Hk _].
  destruct (apply_frame FO (OpAddClock id ov ou fv fu w) _ _ W Ee) as [_ Hi].
  constructor; cbn [c_clocks c_filter with_est f_est].
  - exact (WF_add_clock FO _ _ _ _ _ _ _ _ W Ee).
  - apply NoDup_snoc; auto. intros Hc. rewrite (I _ Hc) in Hk. discriminate.
  - intros x Hx. rewrite Hi. apply in_app_iff in Hx.
    destruct Hx as [Hx|[<-|[]]]; [now rewrite (I _ Hx)|rewrite Z.eqb_refl; apply orb_true_r].
Qed.

Lemma CtlWF_new now id maxf w c : ctl_new now id maxf w = Ok c -> CtlWF c.
Proof.
  apply (CtlWF_add {| c_clocks := []; c_filter := f_empty now |}).
  constructor; cbn; [apply WF_empty|constructor|intros ? []].
Qed.

Lemma CtlWF_remove c id c' : CtlWF c -> ctl_remove_clock id c = Ok c' -> CtlWF c'.
Proof.
  intros [W N I] H. unfold ctl_remove_clock in H.
  destruct (c_clocks c) as [|sys rest0] eqn:Hcl; [discriminate|].
  destruct (sys =? id); [discriminate|]. rewrite <- Hcl in *.
  destruct (remove_first (Z.eqb id) (c_clocks c)) as [[x rest]|] eqn:Hr; [|discriminate].
  apply bind_ok in H. destruct H as (f' & Ef & H). inversion H; subst c'. unfold f_remove_clock in Ef.
  destruct (existsb _ (f_links (c_filter c))); [discriminate|].
  destruct (on_est_ok _ _ _ Ef) as (e & Ee & ->).
  destruct (remove_first_some _ _ _ _ Hr) as (Hp & _ & Hsub & _). apply Z.eqb_eq in Hp. subst x.
  destruct (remove_first_nodup _ (fun z : Z => z) _ _ _ Hr) as [Hn Hne]; [now rewrite map_id|].
  rewrite map_id in Hn.
  destruct (apply_frame FO (OpRemoveClock id) _ _ W Ee) as [_ Hi].
  constructor; cbn [c_clocks c_filter with_est f_est]; [exact (WF_remove_clock FO _ _ _ W Ee)|exact Hn|].
  intros y Hy. rewrite Hi by exact (Hne y Hy). exact (I y (Hsub y Hy)).
Qed.

Lemma steer_clocks_CtlWF now ans c c' calls : CtlWF c -> steer_clocks now ans c = Ok (c', calls) ->
  CtlWF c'.
Proof.
  intros Wc H. unfold steer_clocks in H.
  apply bind_ok in H. destruct H as (flt & Hp & H). apply bind_ok in H. destruct H as (r & Hl & H).
  inversion H. apply (CtlWF_kc c (fst r) Wc).
  exact (kc_trans _ _ _ (on_est_kc (OpProgress now) eq_refl _ _ Hp) (steer_loop_kc _ _ _ _ _ _ Hl)).
Qed.

Lemma ctl_measurement_CtlWF o id fwd s r u n1 n2 ans c : CtlWF c ->
  CtlWF (fst (fst (ctl_measurement o id fwd s r u n1 n2 ans c))).
Proof.
  intros Wc. unfold ctl_measurement.
  destruct (f_progress_time n1 (c_filter c)) as [f1| |] eqn:H1; cbn; auto.
  apply (on_est_kc (OpProgress n1) eq_refl) in H1.
  destruct (f_measurement o id fwd _ _ f1) as [f2| |] eqn:H2; cbn; try exact (CtlWF_kc c f1 Wc H1).
  apply f_measurement_kc in H2. pose proof (CtlWF_kc c f2 Wc (kc_trans _ _ _ H1 H2)) as W2.
  destruct (steer_clocks n2 ans (with_filter c f2)) as [[c3 calls]| |] eqn:H3; cbn; auto.
  exact (steer_clocks_CtlWF _ _ _ _ _ W2 H3).
Qed.

Theorem cstep_CtlWF (o : cop) (c : ctl) : CtlWF c -> CtlWF (fst (cstep o c)).
Proof.
  intros Wc.
  assert (Hkeep : forall r : res ctl, (forall c', r = Ok c' -> CtlWF c') ->
            CtlWF (fst (match r with
                        | Ok c' => (c', (([0], []) : list Z * list float))
                        | Err e => (c, ([e], []))
                        | Panic _ => (c, ([-1], [])) end))).
  { intros r Hr. destruct r; cbn; auto. }
  assert (Hop : forall (g : PtpController.filter -> res PtpController.filter),
            (forall f', g (c_filter c) = Ok f' -> keeps_clocks (f_est (c_filter c)) (f_est f')) ->
            forall c', ctl_filter_op g c = Ok c' -> CtlWF c').
  { intros g Hg c' H. apply bind_ok in H. destruct H as (f' & Ef & H). inversion H.
    exact (CtlWF_kc c f' Wc (Hg _ Ef)). }
  destruct o; cbn [cstep].
  - (* CXE *) apply Hkeep, Hop. exact (on_est_kc (OpAddExternal id) eq_refl _).
  - (* CRE *) apply Hkeep, Hop. exact (on_est_kc (OpRemoveExternal id) eq_refl _).
  - (* CAC *) apply Hkeep. intros c'. exact (CtlWF_add c _ _ _ _ _ _ c' Wc).
  - (* CACX *) apply Hkeep. intros c'. exact (CtlWF_add c _ _ _ _ _ _ c' Wc).
  - (* CRC *) apply Hkeep. intros c'. exact (CtlWF_remove c id c' Wc).
  - (* CLink *) apply Hkeep. intros c' H. apply bind_ok in H. destruct H as (r & E & H).
    apply bind_ok in E. destruct E as (fi & E & Hr). inversion Hr; subst r. inversion H.
    apply (CtlWF_kc c (fst fi) Wc). rewrite (f_add_link_est _ _ _ _ _ _ _ E). apply kc_refl.
  - (* CDL *) cbn. unfold ctl_drop_link. destruct (f_remove_link id (c_filter c)) as [f| |] eqn:E; auto.
    exact (CtlWF_kc c f Wc (f_remove_link_kc _ _ _ E)).
  - (* CED *) apply Hkeep, Hop. intros f' H. unfold f_external_data_update in H.
    destruct (find _ _) as [l|]; [|discriminate]. destruct (fl_external l); [|discriminate].
    inversion H. apply kc_refl.
  - (* CM *) pose proof (ctl_measurement_CtlWF o id forward send recv unc now1 now2 ans c Wc) as H.
    destruct (ctl_measurement o id forward send recv unc now1 now2 ans c) as [[c' code] calls].
    exact H.
  - (* CS *) destruct (steer_clocks now ans c) as [[c' calls]| |] eqn:E; cbn; auto.
    exact (steer_clocks_CtlWF _ _ _ _ _ Wc E).
  - (* CFO *) apply Hkeep, Hop. exact (on_est_kc (OpAbsorbOffset id x) eq_refl _).
  - (* CFF *) apply Hkeep, Hop. exact (on_est_kc (OpAbsorbFreq id x) eq_refl _).
  - (* CP *) apply Hkeep, Hop. exact (on_est_kc (OpProgress t) eq_refl _).
  - (* CQ *) exact Wc.
Qed.

(* the controller after a history *)
Fixpoint cstate (ops : list cop) (c : ctl) : ctl :=
  match ops with [] => c | o :: r => cstate r (fst (cstep o c)) end.

Theorem history_CtlWF now id maxf w c (ops : list cop) :
  ctl_new now id maxf w = Ok c -> CtlWF (cstate ops c).
Proof.
  intros H. apply CtlWF_new in H. revert c H.
  induction ops as [|o ops IH]; intros c H; cbn; auto. apply IH. now apply cstep_CtlWF.
Qed.
