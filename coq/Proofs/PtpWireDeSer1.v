(* C41: facts both directions of the round trip share (two's complement re-encoding, the packed
   header bytes, the flag bytes, what the enumeration decoders return), and the position-wise
   mask of parse then serialise. *)
From V Require Import Model.PtpWire Proofs.Common Proofs.WireBytes.

(* [be n] sees its argument modulo 256 ^ n: both sides are the n bytes that read back as that residue *)
Lemma be_mod : forall n v, be n v = be n (v mod 256 ^ Z.of_nat n).
Proof. intros n v. rewrite <- unbe_be. symmetry. apply be_unbe; [apply be_bytes_ok|apply be_length]. Qed.

Lemma pow256 : forall n, 256 ^ Z.of_nat n = 2 ^ (8 * Z.of_nat n).
Proof. intros. change 256 with (2 ^ 8). rewrite <- Z.pow_mul_r by lia. reflexivity. Qed.

(* re-encoding a two's complement reading gives the bytes back *)
Lemma be_signed : forall l, bytes_ok l ->
  be (length l) (to_signed (8 * Z.of_nat (length l)) (unbe l)) = l.
Proof.
  intros l H. rewrite be_mod, pow256.
  pose proof (unbe_range l H) as R. rewrite pow256 in R.
  rewrite wrap_to_signed by lia. apply be_unbe; [exact H|reflexivity].
Qed.

Lemma be_wrapped : forall l, bytes_ok l -> be (length l) (unbe l mod 256 ^ Z.of_nat (length l)) = l.
Proof. intros l H. rewrite <- be_mod. apply be_unbe; [exact H|reflexivity]. Qed.

Lemma nibbles : forall x, 0 <= x < 256 -> Z.land x 240 = 16 * (x / 16) /\ Z.land x 15 = x mod 16.
Proof. intros x Hx. split; [revert x Hx; apply byte_eq; vm_compute; reflexivity|apply land_15]. Qed.

Lemma nibble_pack : forall h l, 0 <= l < 16 -> Z.lor (h * 16) l = h * 16 + l.
Proof. intros h l Hl. exact (lor_shifted h l 4 ltac:(lia) Hl). Qed.

(* second header byte: versionPTP and minorVersionPTP read and written again *)
Lemma version_byte_de_ser : forall x, 0 <= x < 256 ->
  Z.lor ((((x / 16)) * 16) mod 256) (Z.land x 15) = x /\ 0 <= Z.land x 15 < 16 /\ 0 <= x / 16 < 16.
Proof.
  intros x Hx. rewrite land_15, Z.mod_small, nibble_pack by lia. lia.
Qed.

(* first and sixth header bytes: the sdoId / message type packing read back and written again *)
Lemma byte0_de_ser : forall b0 b5, 0 <= b0 < 256 -> 0 <= b5 < 256 ->
  let sdo := Z.lor ((Z.land b0 240) * 16) b5 in
  Z.lor ((((sdo / 256) mod 256) * 16) mod 256) (Z.land (Z.land b0 15) 15) = b0
  /\ sdo mod 256 = b5 /\ 0 <= sdo < 4096.
Proof.
  intros b0 b5 H0 H5. cbv zeta.
  destruct (nibbles b0 H0) as [-> _].
  replace (16 * (b0 / 16) * 16) with (b0 / 16 * 2 ^ 8) by lia. rewrite lor_shifted by lia.
  rewrite !land_15, Z.mod_mod by lia.
  replace ((((b0 / 16 * 2 ^ 8 + b5) / 256) mod 256 * 16) mod 256) with (b0 / 16 * 16) by lia.
  rewrite nibble_pack by lia. lia.
Qed.

Lemma flags6_de_ser : forall x, 0 <= x < 256 ->
  b2z (bit 0 x) + 2 * b2z (bit 1 x) + 4 * b2z (bit 2 x) + 32 * b2z (bit 5 x) + 64 * b2z (bit 6 x) = Z.land x 103.
Proof. apply byte_eq. vm_compute. reflexivity. Qed.

Lemma flags7_de_ser : forall x, 0 <= x < 256 ->
  b2z (bit 0 x) + 2 * b2z (bit 1 x) + 4 * b2z (bit 2 x) + 8 * b2z (bit 3 x) + 16 * b2z (bit 4 x)
  + 32 * b2z (bit 5 x) + 64 * b2z (bit 6 x) = Z.land x 127.
Proof. apply byte_eq. vm_compute. reflexivity. Qed.

(* what is read from an accuracy or time-source byte is in range and has a wire code *)
Lemma acc_from_ok : forall x, 0 <= x < 256 -> acc_ok (acc_from_prim x) /\ acc_encodable (acc_from_prim x) = true.
Proof.
  intros x H. unfold acc_from_prim.
  destruct ((x <=? 22) || (50 <=? x) && (x <=? 127) || (x =? 255)) eqn:E1; [split; [exact I|reflexivity]|].
  destruct (x <=? 49) eqn:E2; [split; [cbn [acc_ok]; lia|reflexivity]|].
  destruct (x =? 254) eqn:E3; [split; [exact I|reflexivity]|].
  cbn [acc_ok acc_encodable]. unfold is_byte. lia.
Qed.

Lemma tsrc_de_ser : forall x, tsrc_to_prim (tsrc_from_prim x) = x.
Proof.
  intros x. unfold tsrc_from_prim.
  repeat (destruct (x =? _) eqn:E; [apply Z.eqb_eq in E; subst x; reflexivity|]; clear E).
  destruct (_ && _); reflexivity.
Qed.

Lemma tsrc_eqb_eq : forall a b, tsrc_eqb a b = true -> a = b.
Proof. intros [] []; cbn; intros H; try discriminate; try reflexivity; apply Z.eqb_eq in H; congruence. Qed.

Lemma tsrc_eqb_refl : forall t, tsrc_eqb t t = true.
Proof. intros []; cbn; auto using Z.eqb_refl. Qed.

Lemma tsrc_from_encodable : forall x, tsrc_encodable (tsrc_from_prim x) = true.
Proof. intros x. unfold tsrc_encodable. rewrite tsrc_de_ser. apply tsrc_eqb_refl. Qed.

Lemma tsrc_from_ok : forall x, 0 <= x < 256 -> tsrc_ok (tsrc_from_prim x).
Proof.
  intros x H. unfold tsrc_from_prim. repeat (destruct (x =? _); [exact I|]).
  destruct (_ && _); cbn [tsrc_ok]; unfold is_byte; lia.
Qed.

(* MessageType::try_from accepts these *)
Definition msg_types : list Z := [0; 1; 2; 3; 8; 9; 10; 11; 12; 13].
Lemma msgtype_in : forall t, msgtype_ok t = true -> In t msg_types.
Proof. intros t H. unfold msgtype_ok in H. cbn. lia. Qed.

Lemma mapi_from_app : forall {A B} (f : nat -> A -> B) a b i,
  mapi_from f i (a ++ b) = mapi_from f i a ++ mapi_from f (i + length a) b.
Proof.
  intros A B f a. induction a as [|x r IH]; intros b i; cbn [app mapi_from length].
  - rewrite Nat.add_0_r. reflexivity.
  - rewrite IH. replace (S i + length r)%nat with (i + S (length r))%nat by lia. reflexivity.
Qed.

Lemma mapi_from_id : forall (f : nat -> Z -> Z) l i, (forall j x, (i <= j)%nat -> f j x = x) -> mapi_from f i l = l.
Proof.
  intros f l. induction l as [|x r IH]; intros i H; cbn; [reflexivity|].
  rewrite H by lia. rewrite IH; [reflexivity|]. intros j y Hj. apply H. lia.
Qed.

(* outside the header the mask touches ten bytes of a peer-delay request, two of an announce and
   two of a management message *)
Lemma norm_id : forall ty i x, (34 <= i)%nat ->
  (ty = 2 -> (54 <= i)%nat) -> (ty = 11 -> (i <> 46 /\ i <> 49)%nat) -> (ty = 13 -> (i <> 44 /\ i <> 47)%nat) ->
  norm_byte ty i x = x.
Proof.
  intros ty i x Hi H2 H11 H13. unfold norm_byte.
  replace (i =? 6)%nat with false by lia. replace (i =? 7)%nat with false by lia.
  replace ((16 <=? i) && (i <=? 19))%nat with false by lia. replace (i =? 32)%nat with false by lia.
  replace ((ty =? 2) && ((44 <=? i) && (i <=? 53))%nat) with false by lia.
  replace ((ty =? 11) && (i =? 46)%nat) with false by lia. replace ((ty =? 11) && (i =? 49)%nat) with false by lia.
  replace ((ty =? 13) && (i =? 44)%nat) with false by lia. replace ((ty =? 13) && (i =? 47)%nat) with false by lia.
  reflexivity.
Qed.

(* so it leaves alone what follows the body, and the whole body of the other seven types *)
Lemma norm_tail : forall ty i x, (34 + type_size ty <= i)%nat -> norm_byte ty i x = x.
Proof. intros ty i x Hi. apply norm_id; [lia|intros ->; cbn [type_size Z.eqb Pos.eqb] in Hi; lia ..]. Qed.

Lemma norm_plain : forall ty i x, (34 <= i)%nat -> ty <> 2 -> ty <> 11 -> ty <> 13 -> norm_byte ty i x = x.
Proof. intros ty i x Hi H2 H11 H13. apply norm_id; [exact Hi|intros E; contradiction ..]. Qed.

Lemma zeros_byte : forall i a b n, byte i (slice a b (repeat 0 n)) = 0.
Proof.
  intros. unfold byte, slice.
  assert (forall l, Forall (eq 0) l -> forall k, nth k l 0 = 0) as N.
  { induction l as [|y r IH]; intros Hf k; destruct k; cbn; try reflexivity.
    - inversion Hf; subst; reflexivity. - inversion Hf; subst. apply IH. assumption. }
  apply N. apply Forall_firstn, Forall_skipn. apply Forall_forall. intros y Hy. apply repeat_spec in Hy. auto.
Qed.
