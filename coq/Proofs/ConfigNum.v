(* C39: every numeric deserializer of the configuration yields a good value or an error and never
   reaches the debug assertion of NtpDuration::from_seconds, level by level from one threshold
   part up to the [synchronization] section; debug and release profiles agree. *)
From V Require Import Model.ConfigNum Gen.ConstConfigNum Base.D3FloatFacts Proofs.Common.

(* census (constants translator): the same finite-and-non-negative test opens
   visit_f64 of both visitors (the translator fails if either is missing), no
   third visit_f64 or further from_seconds call appeared in config.rs *)
Example config_census :
  CFG_PART_TEST = CFG_SINGLE_TEST /\ CFG_VISIT_F64 = 2 /\ CFG_FROM_SECONDS_CALLS = 4.
Proof. repeat split. Qed.

Lemma bad_threshold_false f : bad_threshold f = false <-> good_number f.
Proof.
  unfold bad_threshold, good_number.
  destruct (f64_is_nan f), (f64_is_infinite f), (f64_lt0 f); cbn; intuition congruence.
Qed.

(* one direction of an accepted threshold: no limit (only from the string
   "inf"), or the conversion of a good number *)
Definition good_part (o : option Z) : Prop :=
  o = None \/ exists f, good_number f /\ o = Some (from_seconds f).

(* the debug assertion of from_seconds is out of reach: NaN and the infinities are refused before *)
Lemma from_seconds_profile_good dbg f :
  f64_is_nan f = false -> f64_is_infinite f = false ->
  from_seconds_profile dbg f = Ok (from_seconds f).
Proof.
  intros H1 H2. unfold from_seconds_profile. rewrite H1, H2.
  destruct dbg; reflexivity.
Qed.

(* What every deserializer below guarantees: a value with the stated property, or an error;
   never a panic. *)
Definition yields {A} (r : res A) (Q : A -> Prop) : Prop :=
  match r with Ok a => Q a | Err _ => True | Panic _ => False end.

Lemma yields_bind {A B} (r : res A) (k : A -> res B) (Q1 : A -> Prop) (Q2 : B -> Prop) :
  yields r Q1 -> (forall a, Q1 a -> yields (k a) Q2) -> yields (res_bind r k) Q2.
Proof. destruct r; cbn; auto. Qed.

Lemma yields_impl {A} (r : res A) (Q1 Q2 : A -> Prop) : yields r Q1 -> (forall a, Q1 a -> Q2 a) -> yields r Q2.
Proof. destruct r; cbn; auto. Qed.

Lemma yields_ok {A} (r : res A) Q a : yields r Q -> r = Ok a -> Q a.
Proof. intros H ->. exact H. Qed.

Lemma yields_np {A} (r : res A) Q : yields r Q -> np r.
Proof. intros H p ->. exact H. Qed.

(* threshold_part without the build profile: the debug assertion is never reached *)
Lemma threshold_part_eq dbg v :
  threshold_part dbg v =
  match v with
  | PComposite => Err EV_INVALID_TYPE
  | PScalar s =>
    match number_of_scalar s with
    | Some f => if bad_threshold f then Err EV_INVALID_VALUE else Ok (Some (from_seconds f))
    | None => match s with SStr true => Ok None | SStr false => Err EV_INVALID_VALUE | _ => Err EV_INVALID_TYPE end
    end
  end.
Proof.
  destruct v as [[b | z | z | [|] |] |]; try reflexivity; cbn [threshold_part number_of_scalar].
  all: destruct (bad_threshold _) eqn:B; [reflexivity |]; apply bad_threshold_false in B; destruct B as (Hn & Hi & _).
  all: rewrite (from_seconds_profile_good dbg _ Hn Hi); reflexivity.
Qed.

Lemma threshold_part_ok dbg v o :
  threshold_part dbg v = Ok o ->
  (v = PScalar (SStr true) /\ o = None) \/
  (exists s f, v = PScalar s /\ number_of_scalar s = Some f /\ good_number f /\
               o = Some (from_seconds f)).
Proof.
  rewrite threshold_part_eq. destruct v as [s |]; [| discriminate].
  destruct (number_of_scalar s) as [f |] eqn:N.
  - destruct (bad_threshold f) eqn:B; [discriminate |].
    intros [= <-]. right. exists s, f. apply bad_threshold_false in B. auto.
  - destruct s as [| | | [|] |]; try discriminate. intros [= <-]. left. auto.
Qed.

Lemma threshold_part_yields dbg v : yields (threshold_part dbg v) good_part.
Proof.
  rewrite threshold_part_eq. destruct v as [s |]; [| exact I]. destruct (number_of_scalar s) as [f |].
  - destruct (bad_threshold f) eqn:B; [exact I |]. right. exists f. split; [apply bad_threshold_false, B | reflexivity].
  - destruct s as [| | | [|] |]; cbn; auto. left. reflexivity.
Qed.

Lemma threshold_part_profiles v : threshold_part true v = threshold_part false v.
Proof. rewrite !threshold_part_eq. reflexivity. Qed.

Definition good_threshold (st : step_threshold) : Prop :=
  good_part (st_forward st) /\ good_part (st_backward st).

Definition good_acc (a : option (option Z)) : Prop :=
  match a with None => True | Some o => good_part o end.

Lemma threshold_map_yields dbg es : forall fw bw, good_acc fw -> good_acc bw ->
  yields (threshold_map dbg es fw bw) good_threshold.
Proof.
  induction es as [| [k v] r IH]; intros fw bw Gf Gb; cbn [threshold_map].
  - split; cbn; [destruct fw | destruct bw]; auto; left; reflexivity.
  - destruct k; [destruct fw | destruct bw |]; cbn; auto;
      (apply (yields_bind _ _ good_part); [apply threshold_part_yields | intros p Gp; apply IH; assumption]).
Qed.

Lemma threshold_map_profiles es : forall fw bw,
  threshold_map true es fw bw = threshold_map false es fw bw.
Proof.
  induction es as [| [k v] r IH]; intros fw bw; cbn [threshold_map]; [reflexivity |].
  destruct k; [destruct fw | destruct bw |]; try reflexivity; rewrite threshold_part_profiles;
    destruct (threshold_part false v); cbn [res_bind]; try reflexivity; apply IH.
Qed.

(* the single-number form is the one part, used for both directions *)
Lemma single_as_part dbg s :
  step_threshold_of dbg (TScalar s) = do o <- threshold_part dbg (PScalar s); Ok (mk_st o o).
Proof.
  destruct s as [b | z | z | [|] |]; try reflexivity; cbn; destruct (bad_threshold _); try reflexivity;
    destruct (from_seconds_profile _ _); reflexivity.
Qed.

Lemma step_threshold_yields dbg v : yields (step_threshold_of dbg v) good_threshold.
Proof.
  destruct v as [s | es |]; [| apply threshold_map_yields; exact I | exact I].
  rewrite single_as_part. apply (yields_bind _ _ good_part). apply threshold_part_yields.
  intros o G. split; exact G.
Qed.

(* durations (accumulated threshold and every other NtpDuration field) *)
Lemma duration_yields dbg s :
  yields (duration_of dbg s) (fun d => exists f, number_of_scalar s = Some f /\ f64_is_nan f = false /\
                                         f64_is_infinite f = false /\ d = from_seconds f).
Proof.
  unfold duration_of. destruct (number_of_scalar s) as [f |]; [| exact I].
  destruct (f64_is_nan f) eqn:Hn; [exact I |]. destruct (f64_is_infinite f) eqn:Hi; [exact I |]. cbn [orb].
  rewrite (from_seconds_profile_good dbg _ Hn Hi). cbn. eauto.
Qed.

Lemma duration_ok dbg s d :
  duration_of dbg s = Ok d ->
  exists f, number_of_scalar s = Some f /\ f64_is_nan f = false /\ f64_is_infinite f = false /\
            d = from_seconds f.
Proof. apply (yields_ok _ _ d (duration_yields dbg s)). Qed.

Lemma accumulated_yields dbg s : yields (accumulated_of dbg s) (fun _ => True).
Proof. eapply yields_bind. apply duration_yields. intros; exact I. Qed.

Definition good_sync (c : sync_cfg) : Prop :=
  good_threshold (c_single c) /\ good_threshold (c_startup c).

Lemma default_sync_good : good_sync default_sync.
Proof.
  unfold good_sync, good_threshold, default_sync; cbn [c_single c_startup st_forward st_backward].
  assert (G1 : good_number (f64_of_Z ConstConfigNum.CFG_DEFAULT_SINGLE_STEP_SECS))
    by (repeat split; vm_compute; reflexivity).
  assert (G2 : good_number (f64_of_Z ConstConfigNum.CFG_DEFAULT_STARTUP_BACKWARD_SECS))
    by (repeat split; vm_compute; reflexivity).
  repeat split; try (left; reflexivity); right; eauto.
Qed.

Lemma load_sync_yields dbg fs : forall c, yields (load_sync dbg fs c) (fun c' => good_sync c -> good_sync c').
Proof.
  induction fs as [| f r IH]; intros c; cbn [load_sync]; [exact (fun G => G) |].
  destruct f as [v | v | v].
  - apply (yields_bind _ _ good_threshold); [apply step_threshold_yields |]. intros st G.
    apply (yields_impl _ _ _ (IH _)). intros c' H [_ G2]. apply H. split; assumption.
  - apply (yields_bind _ _ good_threshold); [apply step_threshold_yields |]. intros st G.
    apply (yields_impl _ _ _ (IH _)). intros c' H [G1 _]. apply H. split; assumption.
  - apply (yields_bind _ _ (fun _ => True)); [destruct v; try exact I; apply accumulated_yields |]. intros a _.
    apply (yields_impl _ _ _ (IH _)). intros c' H [G1 G2]. apply H. split; assumption.
Qed.

(* the converted thresholds are non-negative durations *)
Lemma good_part_nonneg o d : good_part o -> o = Some d -> 0 <= d.
Proof.
  intros [-> | (f & G & ->)] E; [discriminate |]. inversion E; subst. apply from_seconds_nonneg, G.
Qed.
