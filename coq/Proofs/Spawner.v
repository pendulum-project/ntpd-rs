(* C36: every run of spawner_task satisfies [keeps] (Model/Spawner.v), for any spawner and any
   schedule; pace, exact periodicity for a spawner that is never complete, and the two properties
   of the standard spawner are then read off [keeps] by induction on the log alone. *)
From V Require Import Model.Spawner Gen.ConstSpawn.

(* site censuses the model was read against: spawner_task writes has_ticket in 3 places and
   last_ticket_time in 2, names NETWORK_WAIT_PERIOD 3 times (import, test, timeout);
   standard.rs writes has_spawned twice and resolved twice; nts.rs writes has_spawned twice *)
Example census_has_ticket : SPAWNER_TASK_SITES_HAS_TICKET = 3. Proof. reflexivity. Qed.
Example census_last_ticket : SPAWNER_TASK_SITES_LAST_TICKET = 2. Proof. reflexivity. Qed.
Example census_wait_period : SPAWNER_TASK_SITES_WAIT_PERIOD = 3. Proof. reflexivity. Qed.
Example census_std_has_spawned : STANDARD_SITES_HAS_SPAWNED = 2. Proof. reflexivity. Qed.
Example census_std_resolved : STANDARD_SITES_RESOLVED = 2. Proof. reflexivity. Qed.
Example census_nts_has_spawned : NTS_SITES_HAS_SPAWNED = 2. Proof. reflexivity. Qed.

Lemma W_pos : 0 < W.
Proof. reflexivity. Qed.
Lemma W_value : W = 1000.
Proof. reflexivity. Qed.
(* the proofs use only W_pos *)
Global Opaque W.

Definition wait_time (w : waitres) : Z :=
  match w with WClosed t => t | WEvent t _ _ _ => t | WIdle t _ => t end.

(* the message (or the closing of the channel) the wait ends with *)
Definition delivered (evs : list (Z * sysev)) (t : Z) (ties : list bool) : waitres :=
  match evs with [] => WClosed t | (_, e) :: evs' => WEvent t e evs' ties end.

(* the wait ends with a message at an instant not before [n] and, without a ticket, not after the
   deadline; or, without a ticket only, with the timeout at the deadline *)
Lemma wait_step_cases : forall ht l n evs tc ties,
  let d := n + Z.max 0 (W - (n - l)) in
  (exists t ties', n <= t /\ (ht = false -> t <= d) /\ wait_step ht l n evs tc ties = delivered evs t ties') \/
  (ht = false /\ exists ties', wait_step ht l n evs tc ties = WIdle d ties').
Proof.
  intros ht l n evs tc ties d. unfold wait_step. fold d.
  set (arrival := match evs with [] => tc | (a, _) :: _ => a end).
  destruct ht.
  { left. exists (Z.max n arrival), ties. split; [lia | split; [discriminate | reflexivity]]. }
  destruct (Z.leb_spec arrival n).
  { left. exists n, ties. split; [lia | split; [lia | reflexivity]]. }
  destruct (Z.ltb_spec arrival d).
  { left. exists arrival, ties. split; [lia | split; [lia | reflexivity]]. }
  destruct (Z.eqb_spec arrival d); [| right; eauto].
  destruct ties as [| [|] ties']; [left; exists d, [] | right; eauto | left; exists d, ties'];
    (split; [lia | split; [lia | reflexivity]]).
Qed.

Lemma wait_time_delivered : forall evs t ties, wait_time (delivered evs t ties) = t.
Proof. intros [| [a e] r] t ties; reflexivity. Qed.

(* the second half of an iteration and everything after it *)
Definition rest_of_iteration {S} (P : spawner S) (fuel : nat) (st1 : lstate S) (evs : list (Z * sysev)) (tc : Z)
  (ties : list bool) : list entry :=
  match wait_step (has_ticket st1) (last st1) (now st1) evs tc ties with
  | WClosed t => [Closed t]
  | WEvent t e evs' ties' =>
      Handled t e :: loop P fuel (mklstate (has_ticket st1) (last st1) t (handle P (sp st1) e)) evs' tc ties'
  | WIdle t ties' => IdleAt t :: loop P fuel (mklstate (has_ticket st1) (last st1) t (sp st1)) evs tc ties'
  end.

Lemma loop_S : forall S (P : spawner S) fuel st evs tc ties,
  loop P (Datatypes.S fuel) st evs tc ties =
  if snd (attempt_step P st) then fst (fst (attempt_step P st))
  else fst (fst (attempt_step P st)) ++ rest_of_iteration P fuel (snd (fst (attempt_step P st))) evs tc ties.
Proof.
  intros. cbn [loop]. destruct (snd (attempt_step P st)); [reflexivity |].
  unfold rest_of_iteration. destruct (wait_step _ _ _ evs tc ties); reflexivity.
Qed.

(* top of the loop: the loop's variables against the ghost values of [keeps] *)
Definition InvK {S} (st : lstate S) (lastf : option Z) : Prop :=
  match lastf with
  | None => has_ticket st = true
  | Some l => last st = l /\ l <= now st /\ (has_ticket st = true -> l + W <= now st)
  end.
(* at the wait: has_ticket is exactly "an attempt is due" *)
Definition InvW {S} (st : lstate S) (lastf : option Z) : Prop :=
  has_ticket st = due lastf (now st)
  /\ match lastf with None => True | Some l => last st = l /\ l <= now st end.

Lemma InvW_next : forall S (st : lstate S) lastf t (s' : S),
  InvW st lastf -> now st <= t -> InvK (mklstate (has_ticket st) (last st) t s') lastf.
Proof.
  intros S st lastf t s' [Hh Hl] Ht. destruct lastf as [l |]; cbn in *.
  - destruct Hl as [Hl Hle]. repeat split; auto; try lia.
    intros H. rewrite H in Hh. symmetry in Hh. apply Z.leb_le in Hh. lia.
  - exact Hh.
Qed.

Lemma due_false : forall lastf cur, due lastf cur = false -> exists l, lastf = Some l /\ cur < l + W.
Proof.
  intros [l |] cur H; cbn in H; [| discriminate]. exists l. split; auto. apply Z.leb_gt in H. lia.
Qed.

Lemma wait_keeps : forall S (P : spawner S) fuel,
  (forall st evs tc ties lastf, InvK st lastf -> keeps P (sp st) lastf (now st) (loop P fuel st evs tc ties)) ->
  forall (st : lstate S) evs tc ties lastf,
  InvW st lastf -> (sp_complete P (sp st) = false -> due lastf (now st) = false) ->
  keeps P (sp st) lastf (now st) (rest_of_iteration P fuel st evs tc ties).
Proof.
  intros S P fuel IH st evs tc ties lastf HW Hc.
  (* when no attempt is due there is no ticket and the deadline of the wait is l + W *)
  assert (Hnd : forall l, lastf = Some l -> now st < l + W ->
            has_ticket st = false /\ now st + Z.max 0 (W - (now st - last st)) = l + W).
  { intros l -> Hlt. destruct HW as [Hh [Hl Hle]]. cbn in Hh. split; [rewrite Hh; apply Z.leb_gt |]; lia. }
  unfold rest_of_iteration.
  destruct (wait_step_cases (has_ticket st) (last st) (now st) evs tc ties)
    as [(t & ties' & Hge & Hle & ->) | (Hht & ties' & ->)].
  - assert (Hby : by_deadline lastf (now st) t).
    { unfold by_deadline. destruct lastf as [l |]; [| exact I]. intros Hlt.
      destruct (Hnd l eq_refl Hlt) as [Hf Hd]. rewrite <- Hd. auto. }
    destruct evs as [| [a e] evs']; cbn [delivered keeps]; repeat (split; [assumption |]); [reflexivity |].
    match goal with |- keeps _ _ _ _ (loop _ _ ?s _ _ _) => apply (IH s) end.
    apply InvW_next; auto.
  - destruct (due_false lastf (now st)) as (l & -> & Hlt). { destruct HW as [<- _]. exact Hht. }
    destruct (Hnd l eq_refl Hlt) as [_ ->]. cbn [keeps]. split; [split; [assumption | reflexivity] |].
    match goal with |- keeps _ _ _ _ (loop _ _ ?s _ _ _) => apply (IH s) end.
    apply InvW_next; auto. lia.
Qed.

Lemma loop_keeps : forall S (P : spawner S) fuel st evs tc ties lastf,
  InvK st lastf -> keeps P (sp st) lastf (now st) (loop P fuel st evs tc ties).
Proof.
  pose proof W_pos as HWp.
  intros S P fuel; induction fuel as [| fuel IH]; intros st evs tc ties lastf HI.
  - reflexivity.
  - rewrite loop_S.
    (* the loop's own test for "ticket" is [due] *)
    assert (Hdue : has_ticket st || (W <=? now st - last st) = due lastf (now st)).
    { destruct lastf as [l |]; cbn in HI |- *; [| rewrite HI; reflexivity].
      destruct HI as (<- & Hle & Hk). destruct (has_ticket st); cbn [orb]; [symmetry; apply Z.leb_le; auto | lia]. }
    unfold attempt_step. rewrite Hdue.
    destruct (due lastf (now st) && negb (sp_complete P (sp st))) eqn:Hatt.
    + apply andb_true_iff in Hatt. destruct Hatt as [Hd Hc]. apply negb_true_iff in Hc.
      destruct (sp_try P (sp st)) as [[s' d] i] eqn:Htry. cbn [fst snd].
      assert (Hf : now st <= now st + Z.max 0 d) by lia.
      destruct i as [i |]; cbn [app keeps]; rewrite Htry; cbn [fst snd].
      * repeat (split; [solve [auto] |]).
        apply (wait_keeps S P fuel IH (mklstate false (now st + Z.max 0 d) (now st + Z.max 0 d) s')).
        -- split; cbn; [| lia]. symmetry. apply Z.leb_gt. lia.
        -- intros _. cbn. apply Z.leb_gt. lia.
      * repeat (split; [solve [auto] |]). reflexivity.
    + cbn [fst snd app].
      apply (wait_keeps S P fuel IH (mklstate (due lastf (now st)) (last st) (now st) (sp st))).
      * split; cbn; [reflexivity |]. destruct lastf as [l |]; auto. cbn in HI. tauto.
      * cbn. intros Hc. rewrite Hc in Hatt. cbn [negb] in Hatt. rewrite andb_true_r in Hatt. exact Hatt.
Qed.

Theorem task_keeps : forall S (P : spawner S) fuel t0 s evs tc ties,
  keeps P s None t0 (task P fuel t0 s evs tc ties).
Proof. intros. unfold task. apply (loop_keeps S P fuel (init t0 s)). reflexivity. Qed.

(* [keeps] holds again, for the ghost values after the prefix, at every point of the log *)
Lemma keeps_suffix : forall S (P : spawner S) pre s lastf cur rest s' l' c',
  rest <> [] -> keeps P s lastf cur (pre ++ rest) -> replay P s lastf cur pre = (s', l', c') ->
  keeps P s' l' c' rest.
Proof.
  intros S P pre; induction pre as [| e pre IH]; intros s lastf cur rest s' l' c' Hne Hk Hr.
  - cbn in Hr. inversion Hr; subst. exact Hk.
  - assert (Hnil : pre ++ rest <> []) by (intros H; apply app_eq_nil in H; tauto).
    destruct e as [t f i | t e | t | t |]; cbn [app keeps replay] in Hk, Hr.
    + destruct Hk as (_ & _ & _ & _ & _ & Hk). destruct i; [eapply IH; eauto | contradiction].
    + destruct Hk as (_ & _ & _ & Hk). eapply IH; eauto.
    + destruct Hk as (_ & Hk). eapply IH; eauto.
    + destruct Hk as (_ & _ & _ & Hk). contradiction.
    + contradiction.
Qed.

Definition not_after (t : Z) (e : entry) : Prop :=
  match entry_time e with Some u => u <= t | None => True end.

(* the instant of the next attempt: if the spawner is incomplete from some point of the run on
   until the next attempt, that attempt starts exactly at the later of that point and the
   deadline (previous return + W); whatever the loop does in between is not later *)
Lemma keeps_waiting_try : forall S (P : spawner S) mid s lastf cur t f i post,
  keeps P s lastf cur (mid ++ Try t f i :: post) -> waiting P s mid ->
  t = deadline lastf cur /\ Forall (not_after t) mid.
Proof.
  intros S P mid; induction mid as [| e mid IH]; intros s lastf cur t f i post Hk Hw.
  - cbn in Hk. destruct Hk as (_ & Hd & -> & _). split; [| constructor].
    destruct lastf as [l |]; cbn in *; auto. apply Z.leb_le in Hd. lia.
  - destruct Hw as [Hc Hw].
    destruct e as [t1 f1 i1 | u e | u | u |]; try contradiction; cbn [app keeps] in Hk.
    + destruct Hk as (Hnd & Hle & Hby & Hk). destruct (due_false _ _ (Hnd Hc)) as (l & -> & Hlt).
      cbn in Hby. specialize (Hby Hlt).
      destruct (IH _ _ _ _ _ _ _ Hk Hw) as [Ht Hall]. cbn in Ht |- *.
      split; [lia |]. constructor; [unfold not_after; cbn; lia | exact Hall].
    + destruct Hk as (Hl & Hk). destruct lastf as [l |]; [| contradiction]. destruct Hl as [Hlt ->].
      destruct (IH _ _ _ _ _ _ _ Hk Hw) as [Ht Hall]. cbn in Ht |- *.
      split; [lia |]. constructor; [unfold not_after; cbn; lia | exact Hall].
Qed.

Lemma keeps_paced : forall S (P : spawner S) log s lastf cur, keeps P s lastf cur log -> paced lastf log.
Proof.
  intros S P log. induction log as [| e r IH]; intros s lastf cur H; [exact I |].
  destruct e as [t f i | t e | t | t |]; cbn [keeps paced] in *.
  - destruct H as (_ & Hd & -> & Hf & _ & K). split; [| split; [exact Hf |]].
    + destruct lastf; [apply Z.leb_le, Hd | exact I].
    + destruct i; [eapply IH, K | subst r; exact I].
  - eapply IH, H.
  - eapply IH, H.
  - destruct H as (_ & _ & _ & ->). exact I.
  - subst r. exact I.
Qed.

Lemma paced_app_single : forall lastf e r, paced lastf ([e] ++ r) = paced lastf (e :: r).
Proof. reflexivity. Qed.

(* from [paced] to a statement about any two attempts of a log *)
Lemma paced_later : forall log l t f i, paced (Some l) log -> In (Try t f i) log -> l + W <= t.
Proof.
  pose proof W_pos as HW.
  intros log; induction log as [| e r IH]; intros l t f i Hp Hin; [destruct Hin |].
  destruct Hin as [-> | Hin].
  - cbn in Hp. tauto.
  - destruct e as [t1 f1 i1 | | | |]; cbn in Hp; try (eapply IH; eauto; fail).
    destruct Hp as (H1 & H2 & H3). specialize (IH _ _ _ _ H3 Hin). lia.
Qed.

Lemma paced_weaken : forall log l, paced (Some l) log -> paced None log.
Proof.
  intros log; induction log as [| e r IH]; intros l Hp; cbn; auto.
  destruct e; cbn in *; try (eapply IH; eauto; fail). tauto.
Qed.

Lemma paced_pairs : forall log lastf pre t1 f1 i1 mid t2 f2 i2 post,
  paced lastf log -> log = pre ++ Try t1 f1 i1 :: mid ++ Try t2 f2 i2 :: post ->
  t1 <= f1 /\ f1 + W <= t2.
Proof.
  intros log lastf pre; revert log lastf; induction pre as [| e pre IH];
    intros log lastf t1 f1 i1 mid t2 f2 i2 post Hp ->.
  - cbn in Hp. destruct Hp as (_ & Hle & Hp). split; auto.
    eapply paced_later; [exact Hp |]. apply in_or_app; right; left; reflexivity.
  - cbn [app] in Hp. destruct e as [t f i | | | |]; cbn in Hp;
      try (eapply IH; [exact Hp | reflexivity]; fail).
    destruct Hp as (_ & _ & Hp). eapply IH; [exact Hp | reflexivity].
Qed.

(* for a spawner that is never complete [keeps] forces exact periodicity, as long as the run starts
   at t0 and no attempt is ever overdue (cur <= l + W), which [keeps] itself maintains *)
Lemma keeps_periodic : forall S (P : spawner S), (forall x, sp_complete P x = false) ->
  forall t0 log s lastf cur, keeps P s lastf cur log ->
  match lastf with None => cur = t0 | Some l => cur <= l + W end ->
  periodic t0 lastf log.
Proof.
  pose proof W_pos as HW.
  intros S P HN t0 log. induction log as [| e r IH]; intros s lastf cur H C; [exact H |].
  destruct e as [t f i | t e | t | t |]; cbn [keeps] in H.
  - destruct H as (_ & Hd & -> & Hf & _ & K). cbn [periodic]. split; [| split; [exact Hf |]].
    + destruct lastf as [l |]; [apply Z.leb_le in Hd; lia | exact C].
    + destruct i; [eapply IH; [exact K | cbn; lia] | exact K].
  - destruct H as (Hnd & Hle & Hby & K). specialize (Hnd (HN _)).
    destruct lastf as [l |]; [| discriminate]. cbn in Hnd, Hby. apply Z.leb_gt in Hnd.
    cbn [periodic]. split; [auto |]. eapply IH; [exact K | cbn; auto].
  - destruct H as (Hl & K). destruct lastf as [l |]; [| contradiction]. destruct Hl as [Hlt ->].
    cbn [periodic]. split; [reflexivity |]. split; [| eapply IH; [exact K | cbn; lia]].
    (* at l + W an attempt is due: [keeps] allows nothing but the attempt *)
    destruct r as [| [t1 f1 i1 | t1 e1 | t1 | t1 |] q]; cbn [keeps] in K; auto.
    + destruct K as (Hnd & _). specialize (Hnd (HN _)). cbn in Hnd. apply Z.leb_gt in Hnd. lia.
    + destruct K as ([Hlt' _] & _). lia.
    + destruct K as (Hnd & _). specialize (Hnd (HN _)). cbn in Hnd. apply Z.leb_gt in Hnd. lia.
    + subst q. exact I.
  - destruct H as (Hnd & Hle & Hby & ->). specialize (Hnd (HN _)).
    destruct lastf as [l |]; [| discriminate]. cbn in Hnd, Hby. apply Z.leb_gt in Hnd. cbn. auto.
  - subst r. exact I.
Qed.

(* what one call of try_spawn reports and leaves behind *)
Lemma std_try_info : forall dns s,
  exists i, snd (std_try dns s) = Some i /\
    (spawned_info (Some i) = true -> has_spawned (fst (fst (std_try dns s))) = true) /\
    match i with
    | [a; fresh] => resolved (fst (fst (std_try dns s))) = Some a /\
                    match resolved s with Some c => a = c /\ fresh = 0 | None => fresh = 1 end
    | [] => resolved s = None /\ resolved (fst (fst (std_try dns s))) = None
    | _ => False
    end.
Proof.
  intros dns s. unfold std_try. destruct (resolved s) eqn:R; [eexists; cbn; rewrite ?R; repeat split; reflexivity |].
  destruct (dns (nres s)); eexists; cbn; repeat split; try reflexivity; auto; discriminate.
Qed.

Lemma keeps_std_ok : forall dns log s lastf cur armed, keeps (Std dns) s lastf cur log ->
  (armed = false -> has_spawned s = true) -> std_ok armed log.
Proof.
  intros dns log. induction log as [| e r IH]; intros s lastf cur armed H A; [exact I |].
  destruct e as [t f i | t e | t | t |]; cbn [keeps] in H.
  - destruct H as (Hc & _ & _ & _ & -> & K). cbn [sp_complete Std sp_try] in *.
    destruct (std_try_info dns s) as (i & Hi & Hs & _). rewrite Hi in *. cbn [std_ok].
    assert (armed = true) as -> by (destruct armed; auto; rewrite A in Hc; auto; discriminate).
    split; [reflexivity |]. eapply IH; [exact K |]. destruct (spawned_info (Some i)); [auto | discriminate].
  - destruct H as (_ & _ & _ & K).
    destruct e as [| [| |] |]; cbn [std_ok]; (eapply IH; [exact K |]); cbn; auto; discriminate.
  - eapply IH; [apply H | exact A].
  - destruct H as (_ & _ & _ & ->). exact I.
  - subst r. exact I.
Qed.

Lemma keeps_reresolves : forall dns log s lastf cur, keeps (Std dns) s lastf cur log ->
  reresolves (resolved s) log.
Proof.
  intros dns log. induction log as [| e r IH]; intros s lastf cur H; [exact I |].
  destruct e as [t f i | t e | t | t |]; cbn [keeps] in H.
  - destruct H as (_ & _ & _ & _ & -> & K). cbn [sp_try Std] in *.
    destruct (std_try_info dns s) as (i & Hi & _ & Hr). rewrite Hi in *.
    destruct i as [| a [| fr [|]]]; try contradiction; cbn [reresolves].
    + destruct Hr as [R1 R2]. split; [exact R1 |]. rewrite <- R2. eapply IH, K.
    + destruct Hr as [R1 R2]. split; [destruct (resolved s); exact R2 |]. rewrite <- R1. eapply IH, K.
  - destruct H as (_ & _ & _ & K). destruct e as [| [| |] |]; cbn [reresolves]; apply IH in K; exact K.
  - eapply IH, H.
  - destruct H as (_ & _ & _ & ->). exact I.
  - subst r. exact I.
Qed.

(* what each removal reason does to the flags of StandardSpawner (standard.rs, handle_source_removed) *)
Theorem std_demobilized_stays_complete : forall s,
  has_spawned (std_removed s RDemobilized) = has_spawned s
  /\ resolved (std_removed s RDemobilized) = resolved s.
Proof. intros s; split; reflexivity. Qed.

Theorem std_unreachable_forgets : forall s,
  resolved (std_removed s RUnreachable) = None /\ has_spawned (std_removed s RUnreachable) = false.
Proof. intros s; split; reflexivity. Qed.

Theorem std_network_issue_keeps_address : forall s,
  resolved (std_removed s RNetworkIssue) = resolved s /\ has_spawned (std_removed s RNetworkIssue) = false.
Proof. intros s; split; reflexivity. Qed.
