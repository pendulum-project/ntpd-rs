(* C22 by composition (Model/ServerBytes.v): decoder totality (Proofs/Packet.v, C23) + what the decoder
   guarantees about NTPv3 packets + totality of the decision model (Proofs/Server.v). *)
From V Require Import Model.ServerBytes Proofs.Common Proofs.Server Proofs.Packet.

Definition outcome_packet (o : outcome) : packet :=
  match o with Accept p _ => p | DecryptFailed p => p end.

(* an NTPv3 packet is never a decrypt error and never comes with a cookie: the version-3 arm of
   NtpPacket::deserialize does not look at extension fields at all, and the other two keep the header they parsed *)
Lemma deserialize_v3 dec cx data o :
  deserialize dec cx data = Ok o ->
  packet_version (outcome_packet o) = V3 -> exists p, o = Accept p None.
Proof.
  intros H Hv. destruct (deserialize_ok_inv _ _ _ _ H) as (hd & Hh & Ha).
  destruct (Z.eq_dec (header_version hd) 3) as [V|V].
  - destruct hd; try discriminate V. cbn [after_header] in Ha. inv_bind Ha. inversion Ha. eauto.
  - exfalso. destruct (header_deserialize_inv _ _ Hh) as (Hlen & _).
    apply (after_header_fields _ _ _ _ _ V) in Ha.
    rewrite with_fields_eq in Ha by lia.
    inv_bind Ha. unfold finish in Ha. inv_bind Ha. inversion Ha; subst o.
    destruct (l_valid a), hd; try discriminate Hv; apply V; reflexivity.
Qed.

(* the summary of whatever the decoder returns satisfies the decision model's precondition *)
Lemma summary_req_ok dec cx data : req_ok (summary data (deserialize dec cx data)).
Proof.
  unfold req_ok. destruct (deserialize dec cx data) as [o|e|s] eqn:E.
  - destruct o as [p ck|p]; cbn [summary r_ver r_parse r_cookie]; intros Hv;
      destruct (deserialize_v3 _ _ _ _ E Hv) as (p' & Hp); inversion Hp; subst.
    split; [discriminate|reflexivity].
  - cbn [summary r_ver]. discriminate.
  - cbn [summary r_ver]. discriminate.
Qed.

Lemma handle_bytes_summary h cfg c e dec keys off data :
  wf_bytes data -> oracle_wf dec ->
  handle_bytes h cfg c e dec keys off data =
  handle h cfg c e (summary data (deserialize dec (ServerKeys keys off) data)).
Proof.
  intros Hwf Hdec. unfold handle_bytes.
  pose proof (deserialize_total dec (ServerKeys keys off) data Hwf Hdec) as Hnp.
  destruct (deserialize dec (ServerKeys keys off) data) as [o|e'|s]; try reflexivity.
  exfalso. exact (Hnp s eq_refl).
Qed.

(* a history of datagrams is the history of their summaries: every statement about [handle_all] carries over *)
Lemma handle_all_bytes_summary h cfg dec keys off l : forall c,
  Forall (fun x => wf_bytes (snd x)) l -> oracle_wf dec ->
  handle_all_bytes h cfg c dec keys off l =
  handle_all h cfg c (map (fun x => (fst x, summary (snd x) (deserialize dec (ServerKeys keys off) (snd x)))) l).
Proof.
  induction l as [|[e data] l IH]; intros c Hf Hdec; [reflexivity|].
  inversion Hf as [|x l' Hw Hf']; subst. cbn [handle_all_bytes handle_all map fst snd] in *.
  rewrite handle_bytes_summary by assumption.
  destruct (handle h cfg c e _) as [r| |]; cbn [res_bind]; try reflexivity. rewrite IH by assumption. reflexivity.
Qed.
