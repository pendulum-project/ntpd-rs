(* Definitions only: the bit patterns evaluated by C32_from_seconds_boundaries and the round-trip
   bound that C32_roundtrip_refuted refutes; the theorems are in Props/C32.v. *)
From V Require Import Model.FloatConv.
Local Open Scope Z_scope.

(* boundary values of from_seconds: sign preserved, saturation exactly beyond +-2^31 s *)
Definition f64_bits_2p31 : Z := 4746794007248502784.          (*  2147483648.0 *)
Definition f64_bits_m2p31 : Z := 13970166044103278592.        (* -2147483648.0 *)
Definition f64_bits_below_2p31 : Z := 4746794007248502783.    (* largest double below 2^31 *)
Definition f64_bits_below_m2p31 : Z := 13970166044103278593.  (* next double below -2^31 *)
Definition f64_bits_max : Z := 9218868437227405311.           (* f64::MAX *)
Definition f64_bits_min_pos : Z := 1.                         (* smallest subnormal *)
Definition f64_bits_neg_tiny : Z := 9223372036854775809.      (* -smallest subnormal *)

(* the round trip on the binary64 model: the property's bound, and the class
   of durations on which the code misses it *)

Definition roundtrip_bound (d : Z) : Prop :=
  Z.abs (from_seconds (to_seconds d) - d) * 10 ^ 9 < Z.abs d + 10 ^ 9.

(* negative durations between -10^9 units (-0.233 s) and -2^21 units (-0.49 ms):
   there the allowance is below 2 units, the construction of from_seconds
   (floor of a negative value, then truncation of the fraction) loses one unit
   by design and the rounded product f * (2^32-1) can fall just below the
   integer it should be, which truncation turns into a second lost unit *)
Definition KnownClass_C32_roundtrip (d : Z) : Prop := - 10 ^ 9 < d <= - 2 ^ 21.
