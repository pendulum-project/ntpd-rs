(* Proofs for the second sentence of C25 ("any other change never makes
   different content appear authenticated or encrypted"): two runs of the
   extension-field loop over datagrams of the same length that carry the same
   bytes in [0,|a0|) walk through the same fields up to offset |a0|, and under
   the ideal-AEAD hypothesis the only place where anything can become
   authenticated, encrypted or a recovered cookie is the field AT |a0|, where
   both runs hold the same state, ask the same key and decrypt the same tuple
   (n0, a0, c0). *)
From V Require Import Model.Packet Proofs.Common Proofs.Bytes Proofs.Packet Proofs.Tamper.
From V Require Import Gen.ConstPacket.

Lemma raw_agree : forall (r1 r2 : bytes) v5 k tid m, blen r1 = blen r2 -> btake k r1 = btake k r2 ->
  raw_deserialize r1 4 v5 = Ok (tid, m) -> wire_length m <= k ->
  raw_deserialize r2 4 v5 = Ok (tid, m).
Proof.
  intros r1 r2 v5 k tid m Hl Hk H Hw. apply raw_ok in H.
  destruct H as (b0 & b1 & b2 & b3 & rest1 & -> & -> & Hmin & Hm & H4 & Hr & ->).
  set (fl := b2 * 256 + b3) in *. pose proof (nm4_ge fl).
  unfold wire_length in Hw. rewrite blen_btake in Hw by lia. replace (2 + 2 + (fl - 4)) with fl in Hw by lia.
  rewrite !blen_cons in Hl.
  assert (btake 4 r2 = [b0; b1; b2; b3]) as E4.
  { rewrite <- (btake_btake 4 k r2) by lia. rewrite <- Hk. rewrite btake_btake by lia. reflexivity. }
  apply raw_ok. exists b0, b1, b2, b3, (bdrop 4 r2). fold fl.
  split; [rewrite <- (firstn_skipn 4 r2) at 1; change (firstn 4 r2) with (btake 4 r2); rewrite E4; reflexivity|].
  rewrite blen_bdrop by lia. repeat split; try assumption; try lia.
  change rest1 with (bdrop 4 (b0 :: b1 :: b2 :: b3 :: rest1)). apply (window_agree k); [exact Hk|lia..].
Qed.

Lemma stream_next_agree : forall (buf1 buf2 : bytes) c v5 o offset tid m off',
  blen buf1 = blen buf2 -> btake o buf1 = btake o buf2 -> 0 <= offset ->
  stream_next buf1 c 4 v5 offset = Some (Ok (tid, m), off') -> off' <= o ->
  stream_next buf2 c 4 v5 offset = Some (Ok (tid, m), off').
Proof.
  intros buf1 buf2 c v5 o offset tid m off' Hl Hp Ho H Hoff.
  pose proof (stream_next_inv _ _ _ _ _ _ _ _ Ho H) as (Er & Hoff' & Hle & _).
  unfold stream_next in H |- *. rewrite <- Hl.
  destruct (offset >? blen buf1) eqn:E0; [discriminate|].
  assert (blen (bdrop offset buf2) = blen (bdrop offset buf1)) as Hlr by (rewrite !blen_bdrop by lia; lia).
  rewrite Hlr. destruct (_ <=? c); [discriminate|].
  rewrite (raw_agree (bdrop offset buf1) (bdrop offset buf2) v5 (o - offset) tid m); [rewrite Hoff'; reflexivity|lia| |exact Er|lia].
  rewrite <- !bdrop_btake by lia. rewrite Hp. reflexivity.
Qed.

Lemma ef_step_ext : forall dec cx (d1 d2 : bytes) hs v5 offset st tid m,
  range d1 0 (hs + offset) S_EF_AAD = range d2 0 (hs + offset) S_EF_AAD ->
  ef_step dec cx d1 hs v5 offset st tid m = ef_step dec cx d2 hs v5 offset st tid m.
Proof. intros. unfold ef_step. rewrite H. reflexivity. Qed.

(* the trusted part of a decode result *)
Definition auth_of (r : res outcome) : list ef :=
  match r with Ok (Accept p _) | Ok (DecryptFailed p) => authenticated (p_ef p) | _ => [] end.
Definition enc_of (r : res outcome) : list ef :=
  match r with Ok (Accept p _) | Ok (DecryptFailed p) => encrypted (p_ef p) | _ => [] end.
Definition keys_of (r : res outcome) : option cookie :=
  match r with Ok (Accept _ c) => c | _ => None end.

Lemma reports_trusted_iff : forall r,
  reports_trusted r <-> (auth_of r <> [] \/ enc_of r <> [] \/ keys_of r <> None).
Proof.
  intros [[p c|p]|e|s]; cbn [reports_trusted auth_of enc_of keys_of]; try tauto.
Qed.

(* how the result of with_fields shows the trusted part of the state the loop ended in *)
Definition tp_shown (o : outcome) (st : lstate) : Prop :=
  auth_of (Ok o) = authenticated (l_ef st) /\ enc_of (Ok o) = encrypted (l_ef st) /\
  (keys_of (Ok o) = l_cookie st \/ keys_of (Ok o) = None) /\
  (forall p ck, o = Accept p ck -> ck = l_cookie st).

Lemma trusted_tp : forall o st, tp_shown o st -> reports_trusted (Ok o) -> tp st <> tp st_init.
Proof.
  intros o st (Ha & He & Hk & _) H. apply reports_trusted_iff in H. rewrite Ha, He in H.
  unfold tp, st_init. cbn [l_ef l_cookie efdata_empty authenticated encrypted]. intros E. inversion E as [[E1 E2 E3]].
  destruct H as [H|[H|H]]; [congruence|congruence|]. destruct Hk as [Hk|Hk]; rewrite Hk in H; congruence.
Qed.

Lemma decoded_by_loop : forall dec cx b o, deserialize dec cx b = Ok o ->
  exists hd, header_deserialize b = Ok hd /\ 48 <= blen b /\
    (reports_trusted (Ok o) -> header_version hd <> 3) /\
    (header_version hd <> 3 ->
     exists st, ef_loop (S (List.length (bdrop 48 b))) dec cx b 48 (is_v5 hd) (bdrop 48 b) 0 st_init = Ok st /\
       tp_shown o st).
Proof.
  intros dec cx b o H. apply deserialize_ok_inv in H. destruct H as (hd & Hhd & Ho). exists hd.
  pose proof (header_deserialize_inv _ _ Hhd) as (H48 & _). split; [exact Hhd|]. split; [exact H48|]. split.
  - intros H Hv3. destruct hd; try discriminate Hv3. cbn [after_header] in Ho.
    apply bind_ok in Ho. destruct Ho as (m & _ & Ho). inversion Ho; subst o.
    cbn in H. destruct H as [H|[H|H]]; apply H; reflexivity.
  - intros Hv3. apply after_header_fields in Ho; [|exact Hv3]. rewrite with_fields_eq in Ho by lia.
    apply bind_ok in Ho. destruct Ho as (st & El & H). exists st. split; [exact El|].
    apply finish_ok in H. destruct H as (m & _ & ->).
    unfold tp_shown. destruct (l_valid st); cbn [auth_of enc_of keys_of p_ef].
    + repeat split; [left; reflexivity|]. intros p' ck' E; inversion E; reflexivity.
    + repeat split; [right; reflexivity|]. intros p' ck' E; discriminate.
Qed.

Section Rest.
Variable dec : oracle.
Variables n0 a0 c0 : bytes.

(* b carries a0 in [0,|a0|) and, at |a0|, what the decoder's field streamer
   reads as an NTS authenticator field with nonce n0 and ciphertext c0 *)
Definition authenticator_at (b : bytes) : Prop :=
  btake (blen a0) b = a0 /\ 48 <= blen a0 /\
  exists d0 m off, idx b 0 S_DATA0 = Ok d0 /\
    stream_next (bdrop 48 b) (ef_cutoff ((d0 / 8) mod 8 =? 5)) 4 ((d0 / 8) mod 8 =? 5) (blen a0 - 48)
      = Some (Ok (T_ENCRYPTED, m), off) /\
    enc_from_message m = Ok (n0, c0).

Lemma authenticator_agrees : forall b, authenticator_at b -> agrees n0 a0 c0 b.
Proof.
  intros b (Hpre & H48 & d0 & m & off & _ & Hs & Hm).
  apply (auth_field_agrees n0 a0 c0 b 48 ((d0 / 8) mod 8 =? 5)); [lia|].
  split; [exact Hpre|]. split; [exact H48|]. exists m, off. split; assumption.
Qed.

(* the ideal-AEAD hypothesis of Proofs/Tamper.v; authenticator_agrees above does not depend on it *)
Hypothesis dec_genuine : forall key n a c p,
  dec key n a c = Some p -> a = [] \/ (n = n0 /\ a = a0 /\ c = c0).

(* whatever reports something trusted carries the genuine authenticator *)
Theorem trusted_authenticator : forall cx b,
  reports_trusted (deserialize dec cx b) -> authenticator_at b.
Proof.
  intros cx b H. destruct (deserialize dec cx b) as [o|e|s] eqn:E; try contradiction.
  destruct (decoded_by_loop _ _ _ _ E) as (hd & Hhd & _ & Hv3 & Hl). destruct (Hl (Hv3 H)) as (st & Hloop & T).
  pose proof (header_deserialize_inv _ _ Hhd) as (_ & (d0 & Hd0 & Hv) & _).
  destruct (loop_gain dec n0 a0 c0 dec_genuine cx b 48 _ _ 0 _ _ ltac:(lia) ltac:(lia) Hloop)
    as [Hs|(Hpre & Hle & m & off & Hs & Hm)]; [destruct (trusted_tp _ _ T H Hs)|].
  split; [exact Hpre|]. split; [exact Hle|]. exists d0, m, off. rewrite Hv, <- is_v5_version. auto.
Qed.

Lemma step_open : forall cx data hs v5 offset st m s h pt fs,
  hs + offset = blen a0 -> btake (blen a0) data = a0 ->
  enc_from_message m = Ok (n0, c0) ->
  cipher_get dec cx (untrusted (l_ef st)) = Ok (Some h) ->
  dec (holder_key h) n0 a0 c0 = Some pt ->
  inner_fields (S (List.length pt)) pt v5 0 = Ok fs ->
  ef_step dec cx data hs v5 offset st T_ENCRYPTED m = Ok s ->
  tp s = tp (promote st fs h).
Proof.
  intros cx data hs v5 offset st m s h pt fs Hat Hpre Hm Hc Hd Hi H. unfold ef_step in H.
  cbn [set_size l_ef] in H. rewrite Z.eqb_refl, Hm in H. cbn [res_bind] in H. rewrite Hc in H. cbn [res_bind] in H.
  destruct (range data 0 (hs + offset) S_EF_AAD) as [aad|e|s'] eqn:Ea; cbn [res_bind] in H; try discriminate.
  apply range_inv in Ea. destruct Ea as (_ & _ & _ & Haad & _).
  rewrite Z.sub_0_r, bdrop_0, Hat, Hpre in Haad. subst aad.
  rewrite Hd, Hi in H. cbn [res_bind] in H. inversion H; reflexivity.
Qed.

(* two runs over datagrams that carry a0, started in the same state; run 1 is over the genuine
   packet: whatever run 2 gains, run 1 gains too.  Invariant of run 2: up to |a0| it has gained
   nothing and run 1 passes through the same offset and state *)
Lemma loop_two_at : forall cx (d1 d2 : bytes) hs v5 (buf1 buf2 : bytes) m0 off0, 0 < hs ->
  btake (blen a0) d1 = a0 -> btake (blen a0) d2 = a0 ->
  blen buf1 = blen buf2 -> btake (blen a0 - hs) buf1 = btake (blen a0 - hs) buf2 ->
  stream_next buf1 (ef_cutoff v5) 4 v5 (blen a0 - hs) = Some (Ok (T_ENCRYPTED, m0), off0) ->
  enc_from_message m0 = Ok (n0, c0) ->
  forall fuel1 fuel2 offset st st1 st2, 0 <= offset ->
  ef_loop fuel1 dec cx d1 hs v5 buf1 offset st = Ok st1 ->
  ef_loop fuel2 dec cx d2 hs v5 buf2 offset st = Ok st2 ->
  tp st2 = tp st \/ tp st2 = tp st1.
Proof.
  intros cx d1 d2 hs v5 buf1 buf2 m0 off0 Hhs Hd1 Hd2 Hbl Hbp Hauth Hm0 fuel1 fuel2 offset st st1 st2 Ho H1 H2.
  pose proof (loop_no_gain dec n0 a0 c0 dec_genuine cx) as Hpast.
  set (A := blen a0 - hs) in *.
  apply (ef_loop_ind (fun o s =>
           (o <= A /\ tp s = tp st /\ exists f, ef_loop f dec cx d1 hs v5 buf1 o s = Ok st1) \/
           (A < o /\ (tp s = tp st \/ tp s = tp st1)))) in H2.
  - destruct H2 as (o & _ & [(_ & H & _)|(_ & H)] & _); [left; exact H|exact H].
  - intros o s tid m off' s' Ho' HP E Es.
    pose proof (stream_next_inv _ _ _ _ _ _ _ _ Ho' E) as (_ & _ & Hoff & _).
    pose proof (step_char dec n0 a0 c0 dec_genuine _ _ _ _ _ _ _ _ _ Hhs Ho' Es) as C.
    destruct HP as [(Hle & Hs & f & Hf)|(Hgt & Hs)].
    2:{ right. split; [lia|]. destruct C as [C|(_ & _ & Hc & _)]; [rewrite C; exact Hs|unfold A in *; lia]. }
    destruct f as [|f]; [discriminate|]. rewrite ef_loop_unfold in Hf.
    destruct (Z.eq_dec o A) as [->|Hne].
    + (* the field at |a0| *)
      right. split; [lia|]. rewrite Hauth in Hf. apply bind_ok in Hf. destruct Hf as (s1 & Es1 & Hf).
      pose proof (stream_next_inv _ _ _ _ _ _ _ _ Ho' Hauth) as (_ & _ & Hoff0 & _).
      assert (tp st1 = tp s1) as T1 by (eapply Hpast; [exact Hhs| | |exact Hf]; unfold A in *; lia).
      destruct C as [C|(_ & _ & _ & _ & h & pt & fs & G & D & I & P)]; [left; congruence|]. right.
      rewrite T1, P. symmetry. eapply step_open; [| | | | | |exact Es1]; try eassumption. unfold A; lia.
    + (* a field before |a0| *)
      destruct C as [C|(_ & _ & Hc & _)]; [|unfold A in *; lia].
      destruct (Z.ltb_spec A off') as [Hout|Hstay]; [right; split; [lia|left; congruence]|].
      left. split; [lia|]. split; [congruence|]. exists f.
      rewrite (stream_next_agree buf2 buf1 _ _ A _ _ _ _ (eq_sym Hbl) (eq_sym Hbp) Ho' E Hstay) in Hf.
      rewrite (ef_step_ext dec cx d1 d2) in Hf by (apply (range_agree (blen a0)); [congruence|unfold A in *; lia]).
      rewrite Es in Hf. exact Hf.
  - exact Ho.
  - destruct (Z.ltb_spec A offset); [right; split; [lia|left; reflexivity]|].
    left. split; [lia|]. split; [reflexivity|]. exists fuel1. exact H1.
Qed.

(* b is the genuine packet (it carries its authenticator at |a0| and decodes
   without error); b' has the same length: whatever b' reports as trusted is
   exactly what b reports *)
Theorem rest_exact : forall cx (b b' : bytes) o,
  authenticator_at b -> deserialize dec cx b = Ok o -> blen b' = blen b ->
  reports_trusted (deserialize dec cx b') ->
  auth_of (deserialize dec cx b') = auth_of (Ok o) /\
  enc_of (deserialize dec cx b') = enc_of (Ok o) /\
  (forall p ck, o = Accept p ck ->
     keys_of (deserialize dec cx b') = ck \/ keys_of (deserialize dec cx b') = None).
Proof.
  intros cx b b' o (Hb & Ha0 & d0 & m0 & off0 & Hi & Hauth & Hm0) Hr Hl H'.
  destruct (trusted_authenticator cx b' H') as (Hb' & _).
  destruct (deserialize dec cx b') as [o'|e|s] eqn:Hr'; try contradiction.
  destruct (decoded_by_loop _ _ _ _ Hr) as (hd & Hhd & H48 & _ & Hlp).
  destruct (decoded_by_loop _ _ _ _ Hr') as (hd' & Hhd' & H48' & Hv3 & Hlp').
  (* the header lies inside a0, so it is the same *)
  assert (hd' = hd) as ->.
  { rewrite (header_deserialize_agree b' b) in Hhd' by (try lia;
      rewrite <- (btake_btake 48 (blen a0) b'), <- (btake_btake 48 (blen a0) b) by lia; congruence).
    congruence. }
  destruct (Hlp (Hv3 H')) as (st & Hloop & T). destruct (Hlp' (Hv3 H')) as (st' & Hloop' & T').
  pose proof (trusted_tp _ _ T' H') as N'.
  pose proof (header_deserialize_inv _ _ Hhd) as (_ & (d0_ & Hi_ & Hv) & _).
  rewrite Hi in Hi_. inversion Hi_; subst d0_. rewrite Hv, <- is_v5_version in Hauth.
  destruct (loop_two_at cx b b' 48 _ (bdrop 48 b) (bdrop 48 b') m0 off0 ltac:(lia) Hb Hb'
             ltac:(rewrite !blen_bdrop by lia; lia)
             ltac:(rewrite <- !bdrop_btake by lia; congruence)
             Hauth Hm0 _ _ 0 st_init st st' ltac:(lia) Hloop Hloop') as [X|X]; [contradiction|].
  destruct T as (Ta & Te & Tk & Tacc). destruct T' as (Ta' & Te' & Tk' & _).
  unfold tp in X. inversion X as [[X1 X2 X3]].
  rewrite Ta, Ta', Te, Te'. repeat split; try assumption.
  intros q ck Hq. rewrite (Tacc q ck Hq). rewrite <- X3. exact Tk'.
Qed.

End Rest.
