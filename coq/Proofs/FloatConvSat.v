(* NtpDuration::from_seconds on the binary64 model, for every finite non-zero double
   ([from_seconds_finite]; the two zeros are evaluated where C32_from_seconds_sign needs them): it is
   floor(x) * 2^32 plus a fraction below 2^32 when floor(x) fits an i32, and saturates otherwise.
   The model's operations are Flocq's ([fsub_B], [fmul_B], [sf_of_Z_B], [sf_to_int_B]); from
   Flocq's correctness theorems only monotonicity of rounding is used: a rounded value in [0, n],
   n an integer below 2^53, stays in [0, n].  Everything else is integer reasoning on
   (sign, mantissa, exponent). *)
From V Require Import Model.FloatConv Proofs.TimeTypes.
From Flocq Require Import Core.Core IEEE754.BinarySingleNaN IEEE754.PrimFloat.
From Coq Require Import Reals Lra.
Local Open Scope Z_scope.

Notation bf := (binary_float FloatOps.prec FloatOps.emax).
Notation Bsub := (@Bminus FloatOps.prec FloatOps.emax PrimFloat.Hprec PrimFloat.Hmax mode_NE).
Notation Bmul := (@Bmult FloatOps.prec FloatOps.emax PrimFloat.Hprec PrimFloat.Hmax mode_NE).
Notation rnd := (round radix2 (fexp FloatOps.prec FloatOps.emax) (round_mode mode_NE)).

Lemma fsub_B : forall x y : bf, fsub (B2SF x) (B2SF y) = B2SF (Bsub x y).
Proof.
  intros x y. unfold fsub.
  change (SFsub prec emax) with (SFsub FloatOps.prec FloatOps.emax).
  case x as [sx|sx| |sx mx ex Bx]; case y as [sy|sy| |sy my ey By];
    [now (trivial || simpl; case Bool.eqb).. | ].
  simpl. unfold Zminus. rewrite <- cond_Zopp_negb. apply binary_normalize_equiv.
Qed.

Lemma fmul_B : forall x y : bf, fmul (B2SF x) (B2SF y) = B2SF (Bmul x y).
Proof.
  intros x y. unfold fmul.
  change (SFmul prec emax) with (SFmul FloatOps.prec FloatOps.emax).
  case x as [sx|sx| |sx mx ex Bx]; case y as [sy|sy| |sy my ey By]; [now trivial.. | ].
  simpl. rewrite B2SF_SF2B. apply binary_round_aux_equiv.
Qed.

Lemma pow53_lt_emax : 2 ^ 53 < 2 ^ 1024.
Proof. apply Z.pow_lt_mono_r; lia. Qed.

Lemma generic_format_IZR : forall z, Z.abs z < 2 ^ 53 ->
  generic_format radix2 (fexp 53 1024) (IZR z).
Proof.
  intros z Hz. apply generic_format_FLT.
  apply (FLT_spec radix2 (3 - 1024 - 53) 53 (IZR z) (Float radix2 z 0)).
  - unfold F2R. simpl. lra.
  - exact Hz.
  - simpl. lia.
Qed.

Lemma IZR_mul_pow2 : forall a e, 0 <= e -> IZR (a * 2 ^ e) = (IZR a * bpow radix2 e)%R.
Proof.
  intros a e He. rewrite mult_IZR. change (2 ^ e) with (Zpower radix2 e). rewrite IZR_Zpower by exact He.
  reflexivity.
Qed.

(* integer -> binary64 is exact below 2^53 *)
Lemma sf_of_Z_B : forall z, Z.abs z < 2 ^ 53 ->
  exists yB : bf, sf_of_Z z = B2SF yB /\ is_finite yB = true /\ B2R yB = IZR z.
Proof.
  intros z Hz. unfold sf_of_Z.
  change (SpecFloat.binary_normalize prec emax z 0 false) with
         (SpecFloat.binary_normalize FloatOps.prec FloatOps.emax z 0 false).
  rewrite binary_normalize_equiv.
  pose proof (binary_normalize_correct 53 1024 PrimFloat.Hprec PrimFloat.Hmax mode_NE z 0 false) as H.
  cbv zeta in H.
  replace (F2R (Float radix2 z 0)) with (IZR z) in H by (unfold F2R; simpl; lra).
  rewrite round_generic in H; [|apply valid_rnd_N|apply generic_format_IZR; exact Hz].
  rewrite Rlt_bool_true in H.
  2:{ rewrite <- abs_IZR. change (bpow radix2 1024) with (IZR (2 ^ 1024)).
      apply IZR_lt. exact (Z.lt_trans _ _ _ Hz pow53_lt_emax). }
  destruct H as [HR [Hfin _]].
  eexists. split; [reflexivity|]. split; [exact Hfin|exact HR].
Qed.

(* a value in [0, n] is rounded into [0, n], without overflow *)
Lemma round_between : forall n x, Z.abs n < 2 ^ 53 -> (0 <= x <= IZR n)%R ->
  (0 <= rnd x <= IZR n)%R /\ Rlt_bool (Rabs (rnd x)) (bpow radix2 FloatOps.emax) = true.
Proof.
  intros n x Hn Hx.
  assert (H : (0 <= rnd x <= IZR n)%R).
  { split.
    - apply round_ge_generic;
        [apply fexp_correct; exact PrimFloat.Hprec|apply valid_rnd_N|apply generic_format_0|lra].
    - apply round_le_generic;
        [apply fexp_correct; exact PrimFloat.Hprec|apply valid_rnd_N|apply generic_format_IZR; exact Hn|lra]. }
  split; [exact H|]. apply Rlt_bool_true. rewrite Rabs_pos_eq by lra.
  apply Rle_lt_trans with (IZR n); [lra|].
  change (bpow radix2 FloatOps.emax) with (IZR (2 ^ 1024)). apply IZR_lt.
  apply Z.le_lt_trans with (Z.abs n); [lia|exact (Z.lt_trans _ _ _ Hn pow53_lt_emax)].
Qed.

Lemma Bsub_between : forall (x y : bf) n, is_finite x = true -> is_finite y = true ->
  Z.abs n < 2 ^ 53 -> (0 <= B2R x - B2R y <= IZR n)%R ->
  is_finite (Bsub x y) = true /\ (0 <= B2R (Bsub x y) <= IZR n)%R.
Proof.
  intros x y n Fx Fy Hn H. destruct (round_between n _ Hn H) as [Hr Hlt].
  pose proof (Bminus_correct _ _ PrimFloat.Hprec PrimFloat.Hmax mode_NE x y Fx Fy) as C.
  rewrite Hlt in C. destruct C as [E [F _]]. rewrite E. auto.
Qed.

Lemma Bmul_between : forall (x y : bf) n, is_finite x = true -> is_finite y = true ->
  Z.abs n < 2 ^ 53 -> (0 <= B2R x * B2R y <= IZR n)%R ->
  is_finite (Bmul x y) = true /\ (0 <= B2R (Bmul x y) <= IZR n)%R.
Proof.
  intros x y n Fx Fy Hn H. destruct (round_between n _ Hn H) as [Hr Hlt].
  pose proof (Bmult_correct _ _ PrimFloat.Hprec PrimFloat.Hmax mode_NE x y) as C.
  rewrite Hlt, Fx, Fy in C. destruct C as [E [F _]]. rewrite E. auto.
Qed.

(* `as i64` truncates the real value toward zero and saturates *)
Lemma sf_to_int_B : forall y : bf, is_finite y = true ->
  sf_to_int 64 (B2SF y) = sat_i64 (Ztrunc (B2R y)).
Proof.
  intros [s|s| |s m e Hb] Hfin; try discriminate.
  - cbn. rewrite Ztrunc_IZR. reflexivity.
  - cbn [B2SF sf_to_int B2R]. change (clampZ _ _) with sat_i64. f_equal.
    unfold F2R. cbn [Fnum Fexp]. destruct (Z.leb_spec 0 e).
    + rewrite <- IZR_mul_pow2, Ztrunc_IZR by assumption. destruct s; cbn [cond_Zopp]; lia.
    + replace (bpow radix2 e) with (/ IZR (2 ^ (- e)))%R.
      2:{ change (2 ^ (- e)) with (Zpower radix2 (- e)). rewrite IZR_Zpower by lia.
          rewrite bpow_opp, Rinv_inv. reflexivity. }
      assert (0 < 2 ^ (- e)) by (apply Z.pow_pos_nonneg; lia).
      fold (Rdiv (IZR (cond_Zopp s (Z.pos m))) (IZR (2 ^ (- e)))). rewrite Ztrunc_div by lia.
      destruct s; cbn [cond_Zopp].
      * rewrite Z.quot_opp_l, Z.quot_div_nonneg by lia. reflexivity.
      * symmetry. apply Z.quot_div_nonneg; lia.
Qed.

(* the floor of (-1)^s * m * 2^e as an integer: [/] rounds toward minus infinity *)
Definition floorZ (s : bool) (m : positive) (e : Z) : Z :=
  if 0 <=? e then cond_Zopp s (Z.pos m) * 2 ^ e else cond_Zopp s (Z.pos m) / 2 ^ (- e).

Lemma floorZ_nonneg_exp : forall s m e, 0 <= e -> floorZ s m e = cond_Zopp s (Z.pos m) * 2 ^ e.
Proof. intros s m e He. unfold floorZ. destruct (Z.leb_spec 0 e); [reflexivity|lia]. Qed.

Lemma floorZ_neg_exp : forall s m e, e < 0 ->
  exists r, cond_Zopp s (Z.pos m) = 2 ^ (- e) * floorZ s m e + r /\ 0 <= r < 2 ^ (- e).
Proof.
  intros s m e He. unfold floorZ. destruct (Z.leb_spec 0 e); [lia|].
  assert (Hd : 0 < 2 ^ (- e)) by (apply Z.pow_pos_nonneg; lia).
  exists (cond_Zopp s (Z.pos m) mod 2 ^ (- e)).
  split; [apply Z.div_mod; lia|apply Z.mod_pos_bound; exact Hd].
Qed.

Lemma floorZ_abs : forall s m e, e < 0 -> Z.abs (floorZ s m e) <= Z.pos m.
Proof.
  intros s m e He. destruct (floorZ_neg_exp s m e He) as [r [E Hr]].
  destruct s; cbn [cond_Zopp] in E; nia.
Qed.

Lemma div_opp_floor : forall a d, 0 < d ->
  - a / d = - (if a mod d =? 0 then a / d else a / d + 1).
Proof.
  intros a d Hd. destruct (Z.eqb_spec (a mod d) 0).
  - apply Z_div_zero_opp_full. assumption.
  - rewrite Z_div_nz_opp_full by lia. lia.
Qed.

Lemma sf_floor_neg_exp : forall s m e, e < 0 ->
  sf_floor (S754_finite s m e) = sf_of_Z (floorZ s m e).
Proof.
  intros s m e He. unfold sf_floor, floorZ. destruct (Z.leb_spec 0 e); [lia|]. cbv zeta.
  destruct s; cbn [cond_Zopp].
  - rewrite div_opp_floor by (apply Z.pow_pos_nonneg; lia). reflexivity.
  - destruct (Z.eqb_spec (Z.pos m / 2 ^ (- e)) 0) as [->|]; reflexivity.
Qed.

Lemma floorZ_R : forall s m e,
  (0 <= IZR (cond_Zopp s (Z.pos m)) * bpow radix2 e - IZR (floorZ s m e) < 1)%R.
Proof.
  intros s m e. destruct (Z.leb_spec 0 e) as [He|He].
  - rewrite floorZ_nonneg_exp, IZR_mul_pow2 by assumption. lra.
  - destruct (floorZ_neg_exp s m e He) as [r [E Hr]]. rewrite E, plus_IZR, mult_IZR.
    change (2 ^ (- e)) with (Zpower radix2 (- e)) in *. rewrite IZR_Zpower by lia.
    assert (HdR : (bpow radix2 (- e) * bpow radix2 e = 1)%R).
    { rewrite <- bpow_plus. replace (- e + e) with 0 by lia. reflexivity. }
    assert (0 <= IZR r < bpow radix2 (- e))%R.
    { rewrite <- IZR_Zpower by lia. split; [apply IZR_le|apply IZR_lt]; lia. }
    pose proof (bpow_gt_0 radix2 e).
    set (Q := IZR (floorZ s m e)). set (R := IZR r) in *.
    set (D := bpow radix2 (- e)) in *. set (B := bpow radix2 e) in *.
    replace ((D * Q + R) * B - Q)%R with (R * B)%R
      by (transitivity (Q * (D * B) + R * B - Q)%R; [rewrite HdR|]; ring).
    nra.
Qed.

(* the floor step of from_seconds, for a finite non-zero double given by its Flocq representation *)
Lemma floor_spec : forall s m e (Hb : SpecFloat.bounded FloatOps.prec FloatOps.emax m e = true),
  Z.pos m < 2 ^ 53 ->
  let x := S754_finite s m e in
  let xB : bf := B754_finite s m e Hb in
  let z := floorZ s m e in
  exists flB : bf,
    sf_floor x = B2SF flB /\ is_finite flB = true /\ B2R flB = IZR z /\
    (0 <= B2R xB - IZR z < 1)%R /\ sf_to_int 64 (sf_floor x) = sat_i64 z.
Proof.
  intros s m e Hb Hm x xB z.
  assert (exists flB : bf, sf_floor x = B2SF flB /\ is_finite flB = true /\ B2R flB = IZR z)
    as [flB [Hfl [Hfin HR]]].
  { destruct (Z.leb_spec 0 e) as [He|He].
    - exists xB. unfold x, z, sf_floor. destruct (Z.leb_spec 0 e); [|lia].
      split; [reflexivity|]. split; [reflexivity|].
      rewrite floorZ_nonneg_exp, IZR_mul_pow2 by assumption. reflexivity.
    - unfold x. rewrite sf_floor_neg_exp by assumption. apply sf_of_Z_B.
      pose proof (floorZ_abs s m e He) as Hz. fold z in Hz. lia. }
  exists flB. split; [exact Hfl|]. split; [exact Hfin|]. split; [exact HR|].
  split; [apply floorZ_R|]. rewrite Hfl, sf_to_int_B, HR, Ztrunc_IZR by exact Hfin. reflexivity.
Qed.


(* the three arms of the match: only the integer part decides *)
Lemma from_seconds_cases : forall x, let i := sf_to_int 64 (sf_floor x) in
  (2 ^ 31 <= i -> from_seconds x = i64_max) /\
  (i < - 2 ^ 31 -> from_seconds x = i64_min) /\
  (- 2 ^ 31 <= i < 2 ^ 31 ->
   from_seconds x = to_signed 64 (Z.lor (i * 2 ^ 32) (sf_to_int 64 (fmul (fsub x (sf_floor x)) u32max_f)))).
Proof.
  intros x i. unfold from_seconds. cbv zeta. fold i.
  destruct (Z.leb_spec (- 2 ^ 31) i); destruct (Z.leb_spec i (2 ^ 31 - 1));
    destruct (Z.ltb_spec i (- 2 ^ 31)); cbn [andb]; repeat split; intros; try lia; reflexivity.
Qed.

(* the fraction x - floor x, scaled by u32::MAX and truncated, is below 2^32: both rounded
   operations stay between the integers that bound their exact results *)
Lemma fraction_range : forall xB flB : bf, is_finite xB = true -> is_finite flB = true ->
  (0 <= B2R xB - B2R flB <= 1)%R ->
  0 <= sf_to_int 64 (fmul (fsub (B2SF xB) (B2SF flB)) u32max_f) < 2 ^ 32.
Proof.
  intros xB flB Fx Ffl H. unfold u32max_f. change (2 ^ 32 - 1) with 4294967295.
  destruct (Bsub_between xB flB 1 Fx Ffl ltac:(lia) H) as [Ff Hf].
  destruct (sf_of_Z_B 4294967295 ltac:(lia)) as [uB [-> [Fu HuR]]].
  destruct (Bmul_between (Bsub xB flB) uB 4294967295 Ff Fu ltac:(lia)) as [Ft Ht].
  { rewrite HuR. nra. }
  rewrite fsub_B, fmul_B, sf_to_int_B by exact Ft.
  pose proof (Ztrunc_le _ _ (proj1 Ht)) as H0. pose proof (Ztrunc_le _ _ (proj2 Ht)) as H1.
  rewrite Ztrunc_IZR in H0, H1. clear - H0 H1. unfold_ranges. pows. lia.
Qed.

(* from_seconds of a finite non-zero double: floor(x) * 2^32 + fraction when floor(x) fits an
   i32, saturation otherwise *)
Theorem from_seconds_finite : forall s m e
  (Hb : SpecFloat.bounded FloatOps.prec FloatOps.emax m e = true), Z.pos m < 2 ^ 53 ->
  let x := S754_finite s m e in
  let z := floorZ s m e in
  (2 ^ 31 <= z -> from_seconds x = i64_max) /\
  (z < - 2 ^ 31 -> from_seconds x = i64_min) /\
  (- 2 ^ 31 <= z < 2 ^ 31 -> exists t, 0 <= t < 2 ^ 32 /\ from_seconds x = z * 2 ^ 32 + t).
Proof.
  intros s m e Hb Hm x z.
  destruct (floor_spec s m e Hb Hm) as [flB [Hfl [Hfin [HR [Hdiff Hi]]]]]. fold x z in Hfl, HR, Hdiff, Hi.
  pose proof (from_seconds_cases x) as [Hhi [Hlo Hmid]]. rewrite Hi in Hhi, Hlo, Hmid.
  split; [|split]; intros Hz.
  - apply Hhi. clear - Hz. unfold_ranges. pows. lia.
  - apply Hlo. clear - Hz. unfold_ranges. pows. lia.
  - assert (Hs : sat_i64 z = z) by (apply sat_i64_saturates; clear - Hz; unfold in_i64; pows; lia).
    rewrite Hs in Hmid. rewrite Hmid by exact Hz.
    pose proof (fraction_range (B754_finite s m e Hb) flB eq_refl Hfin ltac:(rewrite HR; lra)) as Ht.
    rewrite <- Hfl in Ht. eexists. split; [exact Ht|].
    rewrite lor_shift32 by exact Ht. apply to_signed64_id. clear - Hz Ht. unfold in_i64. pows. lia.
Qed.


Lemma bounded_of_digits : forall m e,
  SpecFloat.fexp 53 1024 (Zdigits radix2 (Z.pos m) + e) = e -> e <= 1024 - 53 ->
  SpecFloat.bounded FloatOps.prec FloatOps.emax m e = true.
Proof.
  intros m e H1 H2. unfold SpecFloat.bounded, SpecFloat.canonical_mantissa.
  rewrite Zpos_digits2_pos. apply andb_true_intro.
  split; [apply Zeq_bool_true; exact H1|apply Z.leb_le; exact H2].
Qed.

(* sign, mantissa and exponent of a pattern that is neither infinite nor NaN; with biased
   exponent E >= 1 the value is normal *)
Lemma sf_of_bits_finite : forall b,
  let E := (b / 2 ^ 52) mod 2 ^ 11 in
  E <> 2047 ->
  (E = 0 /\ sf_of_bits b = S754_zero (Z.testbit b 63)) \/
  exists m e, sf_of_bits b = S754_finite (Z.testbit b 63) m e /\
    SpecFloat.bounded FloatOps.prec FloatOps.emax m e = true /\
    Z.pos m < 2 ^ 53 /\ e = Z.max E 1 - 1075 /\ (1 <= E -> 2 ^ 52 <= Z.pos m).
Proof.
  intros b E HE. unfold sf_of_bits. fold E.
  pose proof (Z.mod_pos_bound (b / 2 ^ 52) (2 ^ 11) ltac:(lia)) as HEr. fold E in HEr.
  pose proof (Z.mod_pos_bound b (2 ^ 52) ltac:(lia)) as Hm.
  set (mt := b mod 2 ^ 52) in *. change (2 ^ 11) with 2048 in HEr.
  destruct (Z.eqb_spec E 0) as [E0|E0].
  - destruct (Z.eqb_spec mt 0); [left; split; [assumption|reflexivity]|right].
    exists (Z.to_pos mt), (-1074). rewrite Z2Pos.id by lia.
    split; [reflexivity|]. split; [|change (2 ^ 53) with (2 * 2 ^ 52); lia].
    apply bounded_of_digits; [|lia]. rewrite Z2Pos.id by lia.
    assert (Zdigits radix2 mt <= 52)
      by (apply Zdigits_le_Zpower; change (Zpower radix2 52) with (2 ^ 52); lia).
    assert (0 < Zdigits radix2 mt) by (apply Zdigits_gt_0; lia).
    unfold SpecFloat.fexp, SpecFloat.emin. lia.
  - destruct (Z.eqb_spec E 2047); [contradiction|right].
    exists (Z.to_pos (mt + 2 ^ 52)), (E - 1075). rewrite Z2Pos.id by lia.
    split; [reflexivity|]. split; [|change (2 ^ 53) with (2 * 2 ^ 52); lia].
    apply bounded_of_digits; [|lia]. rewrite Z2Pos.id by lia.
    rewrite (Zdigits_unique radix2 (mt + 2 ^ 52) 53).
    + unfold SpecFloat.fexp, SpecFloat.emin. lia.
    + change (Zpower radix2 (53 - 1)) with (2 ^ 52). change (Zpower radix2 53) with (2 * 2 ^ 52). lia.
Qed.

(* magnitude at least 2^31 (exponent of a normal double at least 31) ... *)
Lemma floorZ_big : forall (s : bool) m e, 2 ^ 52 <= Z.pos m -> -21 <= e ->
  if s then floorZ s m e <= - 2 ^ 31 else 2 ^ 31 <= floorZ s m e.
Proof.
  intros s m e Hm He. change (2 ^ 52) with (2 ^ 31 * 2 ^ 21) in Hm. change (2 ^ 31) with 2147483648 in *.
  destruct (Z.leb_spec 0 e) as [H|H].
  - rewrite floorZ_nonneg_exp by assumption.
    assert (0 < 2 ^ e) by (apply Z.pow_pos_nonneg; lia).
    change (2 ^ 21) with 2097152 in Hm. destruct s; cbn [cond_Zopp]; nia.
  - destruct (floorZ_neg_exp s m e H) as [r [E Hr]].
    assert (2 ^ (- e) <= 2 ^ 21) by (apply Z.pow_le_mono_r; lia).
    destruct s; cbn [cond_Zopp] in E; nia.
Qed.

(* ... and below 2^31 *)
Lemma floorZ_small : forall s m e, Z.pos m < 2 ^ 53 -> e <= -22 ->
  - 2 ^ 31 <= floorZ s m e < 2 ^ 31 /\ if s then floorZ s m e <= -1 else 0 <= floorZ s m e.
Proof.
  intros s m e Hm He. unfold floorZ. destruct (Z.leb_spec 0 e); [lia|].
  assert (Hd : 2 ^ 22 <= 2 ^ (- e)) by (apply Z.pow_le_mono_r; lia).
  assert (K : Z.pos m < 2 ^ (- e) * 2 ^ 31).
  { apply Z.lt_le_trans with (2 ^ 22 * 2 ^ 31); [exact Hm|apply Z.mul_le_mono_nonneg_r; lia]. }
  destruct s; cbn [cond_Zopp].
  - assert (- Z.pos m / 2 ^ (- e) < 0) by (apply Z.div_lt_upper_bound; lia).
    split; [split|lia]; [apply Z.div_le_lower_bound|apply Z.div_lt_upper_bound]; lia.
  - assert (0 <= Z.pos m / 2 ^ (- e)) by (apply Z.div_pos; lia).
    split; [split|assumption]; [lia|apply Z.div_lt_upper_bound; lia].
Qed.

(* -2^31 s is the one double of magnitude >= 2^31 whose floor fits an i32 *)
Lemma floorZ_eq_m2p31 : forall m e, 2 ^ 52 <= Z.pos m -> -21 <= e ->
  floorZ true m e = - 2 ^ 31 -> m = 4503599627370496%positive /\ e = -21.
Proof.
  intros m e Hm He Hz. change (2 ^ 52) with (2 ^ 31 * 2 ^ 21) in Hm.
  destruct (Z.leb_spec 0 e) as [H|H].
  - rewrite floorZ_nonneg_exp in Hz by assumption.
    assert (0 < 2 ^ e) by (apply Z.pow_pos_nonneg; lia).
    change (2 ^ 31) with 2147483648 in *. change (2 ^ 21) with 2097152 in Hm. cbn [cond_Zopp] in Hz. nia.
  - destruct (floorZ_neg_exp true m e H) as [r [E Hr]]. rewrite Hz in E. cbn [cond_Zopp] in E.
    assert (Hd : 2 ^ (- e) <= 2 ^ 21) by (apply Z.pow_le_mono_r; lia).
    assert (Hd' : 2 ^ 21 <= 2 ^ (- e)) by (change (2 ^ 31) with 2147483648 in *; nia).
    apply Z.pow_le_mono_r_iff in Hd'; [|lia|lia].
    assert (e = -21) by lia. subst e. split; [|reflexivity].
    apply Pos2Z.inj. change (2 ^ (- -21)) with 2097152 in *. change (2 ^ 31) with 2147483648 in *.
    change (2 ^ 21) with 2097152 in *. lia.
Qed.

(* all 64-bit patterns that encode a number of magnitude >= 2^31 (biased
   exponent >= 1023 + 31), including the infinities, excluding NaN *)
Lemma from_seconds_saturates_bits : forall b, 0 <= b < 2 ^ 64 ->
  1054 <= (b / 2 ^ 52) mod 2 ^ 11 ->
  ((b / 2 ^ 52) mod 2 ^ 11 = 2047 -> b mod 2 ^ 52 = 0) ->
  from_seconds (sf_of_bits b) = if Z.testbit b 63 then i64_min else i64_max.
Proof.
  intros b Hb HE Hnan.
  destruct (Z.eq_dec ((b / 2 ^ 52) mod 2 ^ 11) 2047) as [Einf|Efin].
  - unfold sf_of_bits. rewrite Einf, (Hnan Einf). destruct (Z.testbit b 63); vm_compute; reflexivity.
  - destruct (sf_of_bits_finite b Efin) as [[E0 _]|[m [e [-> [Hbd [Hm [He Hm2]]]]]]]; [lia|].
    specialize (Hm2 ltac:(lia)).
    destruct (from_seconds_finite (Z.testbit b 63) m e Hbd Hm) as [Hhi [Hlo _]].
    pose proof (floorZ_big (Z.testbit b 63) m e Hm2 ltac:(lia)) as Hz.
    destruct (Z.testbit b 63); [|exact (Hhi Hz)].
    destruct (Z.eq_dec (floorZ true m e) (- 2 ^ 31)) as [Ez|Nz]; [|apply Hlo; lia].
    destruct (floorZ_eq_m2p31 m e Hm2 ltac:(lia) Ez) as [-> ->]. vm_compute. reflexivity.
Qed.
