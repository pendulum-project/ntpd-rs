(* Proofs for C25: whatever the decoder reports as authenticated, encrypted or
   as recovered cookie keys comes from one successful AEAD decryption whose
   associated data is the datagram up to the authenticator field and whose
   nonce and ciphertext are the bytes at the positions the field announces.
   This file: one iteration of the extension-field loop under the ideal-AEAD hypothesis, and what
   follows for one run of the loop. *)
From V Require Import Model.Packet Proofs.Common Proofs.Bytes Proofs.Packet.
From V Require Import Gen.ConstPacket.

Lemma enc_from_message_inv : forall m nonce ct, enc_from_message m = Ok (nonce, ct) ->
  nonce = btake (blen nonce) (bdrop 4 m) /\ 4 + blen nonce <= blen m /\
  ct = btake (blen ct) (bdrop (4 + nm4_u16 (blen nonce)) m) /\
  0 <= nm4_u16 (blen nonce) /\ 4 + nm4_u16 (blen nonce) + blen ct <= blen m.
Proof.
  intros m nonce ct H. unfold enc_from_message in H.
  destruct m as [|b0 [|b1 [|b2 [|b3 rest]]]]; try discriminate.
  remember (b0 :: b1 :: b2 :: b3 :: rest) as m eqn:Em.
  assert (bdrop 4 m = rest /\ blen m = 4 + blen rest) as [Hr Hl].
  { subst m. split; [reflexivity|]. rewrite !blen_cons. lia. }
  destruct (slice rest 0 _) as [n|] eqn:E1; [|discriminate].
  destruct (slice m _ _) as [c|] eqn:E2; [|discriminate].
  inversion H; subst n c; clear H.
  apply slice_some in E1. destruct E1 as (_ & ? & ? & Hn & Hnl).
  apply slice_some in E2. destruct E2 as (? & ? & ? & Hc & Hcl).
  rewrite Z.sub_0_r in *. rewrite Hr. rewrite Hnl.
  replace (blen ct) with (4 + nm4_u16 (b0 * 256 + b1) + (b2 * 256 + b3) - (4 + nm4_u16 (b0 * 256 + b1))) by lia.
  pose proof (nm4_u16_nonneg (b0 * 256 + b1) ltac:(lia)).
  repeat split; try assumption; try lia.
Qed.

(* what a loop state holds as trusted *)
Definition tp (st : lstate) : list ef * list ef * option cookie :=
  (authenticated (l_ef st), encrypted (l_ef st), l_cookie st).

Section Tamper.
Variable dec : oracle.
Variables n0 a0 c0 : bytes.

Definition agrees (data : bytes) : Prop :=
  btake (blen a0) data = a0 /\
  slice data (blen a0 + 8) (blen a0 + 8 + blen n0) = Some n0 /\
  slice data (blen a0 + 8 + nm4_u16 (blen n0)) (blen a0 + 8 + nm4_u16 (blen n0) + blen c0) = Some c0.

Definition reports_trusted (r : res outcome) : Prop :=
  match r with
  | Ok (Accept p c) => authenticated (p_ef p) <> [] \/ encrypted (p_ef p) <> [] \/ c <> None
  | Ok (DecryptFailed p) => authenticated (p_ef p) <> [] \/ encrypted (p_ef p) <> []
  | _ => False
  end.

(* [data] carries a0 and then, where the loop over [bdrop hs data] reads its next field, an NTS
   authenticator field with nonce n0 and ciphertext c0 *)
Definition auth_field (data : bytes) (hs : Z) (v5 : bool) : Prop :=
  btake (blen a0) data = a0 /\ hs <= blen a0 /\
  exists m off, stream_next (bdrop hs data) (ef_cutoff v5) 4 v5 (blen a0 - hs) = Some (Ok (T_ENCRYPTED, m), off) /\
    enc_from_message m = Ok (n0, c0).

Lemma auth_field_agrees : forall data hs v5, 0 <= hs -> auth_field data hs v5 -> agrees data.
Proof.
  intros data hs v5 Hhs (Hpre & Hle & m & off & E & Hm).
  apply stream_next_inv in E; [|lia]. destruct E as (_ & -> & Hoff & Hmm & _).
  unfold wire_length in Hoff. pose proof (nm4_ge (2 + 2 + blen m)). pose proof (blen_nonneg m).
  assert (hs <= blen data) by (pose proof (blen_bdrop_max hs data); lia).
  rewrite blen_bdrop in Hoff by lia. rewrite bdrop_bdrop in Hmm by lia.
  replace (hs + (blen a0 - hs + 4)) with (blen a0 + 4) in Hmm by lia.
  apply enc_from_message_inv in Hm. destruct Hm as (Hno & Hnl & Hct & Hpos & Hcl).
  pose proof (blen_nonneg n0). pose proof (blen_nonneg c0). pose proof (blen_nonneg a0).
  rewrite Hmm in Hno, Hct.
  rewrite bdrop_btake in Hno, Hct by lia. rewrite btake_btake in Hno, Hct by lia.
  rewrite bdrop_bdrop in Hno, Hct by lia.
  split; [exact Hpre|]. split.
  - rewrite slice_in by lia. f_equal. rewrite Hno at 2. f_equal; [lia|f_equal; lia].
  - rewrite slice_in by lia. f_equal. rewrite Hct at 2. f_equal; [lia|f_equal; lia].
Qed.

(* ideal AEAD, one genuine authenticator: besides cookie encryptions (made with
   empty associated data) the only tuple that decrypts is (n0, a0, c0).  Declared after the lemma
   above, which is about bytes only and must not be generalised over it. *)
Hypothesis dec_genuine : forall key n a c p,
  dec key n a c = Some p -> a = [] \/ (n = n0 /\ a = a0 /\ c = c0).

(* one iteration either leaves the trusted part alone, or it reads the authenticator field at
   |a0|, decrypts the genuine tuple with the key the fields seen so far select, and promotes *)
Lemma step_char : forall cx data hs v5 offset st tid m s, 0 < hs -> 0 <= offset ->
  ef_step dec cx data hs v5 offset st tid m = Ok s ->
  tp s = tp st \/
  (tid = T_ENCRYPTED /\ enc_from_message m = Ok (n0, c0) /\ hs + offset = blen a0 /\
   btake (blen a0) data = a0 /\
   exists h pt fs, cipher_get dec cx (untrusted (l_ef st)) = Ok (Some h) /\
     dec (holder_key h) n0 a0 c0 = Some pt /\
     inner_fields (S (List.length pt)) pt v5 0 = Ok fs /\
     tp s = tp (promote st fs h)).
Proof.
  intros cx data hs v5 offset st tid m s Hhs Ho H. unfold ef_step in H. cbn [set_size l_ef] in H.
  destruct (tid =? T_ENCRYPTED) eqn:Et.
  - apply bind_ok in H. destruct H as ([nonce ct] & Em & H).
    apply bind_ok in H. destruct H as ([h|] & Eh & H); [|inversion H; left; reflexivity].
    apply bind_ok in H. destruct H as (aad & Ea & H).
    destruct (dec (holder_key h) nonce aad ct) as [pt|] eqn:Ed; [|inversion H; left; reflexivity].
    apply bind_ok in H. destruct H as (fs & Ei & H). inversion H; subst s; clear H. right.
    apply range_inv in Ea. destruct Ea as (_ & _ & _ & Haad & Hal). rewrite Z.sub_0_r in Haad, Hal.
    destruct (dec_genuine _ _ _ _ _ Ed) as [Hnil|(-> & -> & ->)].
    { rewrite Hnil in Hal. change (blen []) with 0 in Hal. lia. }
    split; [lia|]. split; [exact Em|]. split; [lia|]. split; [rewrite Hal; symmetry; exact Haad|].
    exists h, pt, fs. repeat split; assumption || reflexivity.
  - apply bind_ok in H. destruct H as (f & _ & H). inversion H; left; reflexivity.
Qed.

Lemma loop_gain : forall cx data hs v5 fuel offset st st', 0 < hs -> 0 <= offset ->
  ef_loop fuel dec cx data hs v5 (bdrop hs data) offset st = Ok st' ->
  tp st' = tp st \/ auth_field data hs v5.
Proof.
  intros cx data hs v5 fuel offset st st' Hhs Ho H.
  apply (ef_loop_ind (fun _ s => tp s = tp st \/ auth_field data hs v5)) in H;
    [destruct H as (_ & _ & H & _); exact H| |assumption|left; reflexivity].
  intros o s tid m off' s' Ho' [Hs|Ha] E Hstep; [|right; exact Ha].
  destruct (step_char _ _ _ _ _ _ _ _ _ Hhs Ho' Hstep) as [Hc|(-> & Hm & Hat & Hpre & _)]; [left; congruence|].
  right. split; [exact Hpre|]. split; [lia|]. exists m, off'. replace (blen a0 - hs) with o by lia. split; assumption.
Qed.

Lemma loop_no_gain : forall cx data hs v5 buf, 0 < hs ->
  forall fuel offset st st', 0 <= offset -> blen a0 < hs + offset ->
  ef_loop fuel dec cx data hs v5 buf offset st = Ok st' -> tp st' = tp st.
Proof.
  intros cx data hs v5 buf Hhs fuel offset st st' Ho Hp H.
  apply (ef_loop_ind (fun o s => blen a0 < hs + o /\ tp s = tp st)) in H;
    [destruct H as (_ & _ & (_ & H) & _); exact H| |assumption|split; [assumption|reflexivity]].
  intros o s tid m off' s' Ho' (Hpast & Hs) E Hstep. apply stream_next_inv in E; [|assumption].
  destruct (step_char _ _ _ _ _ _ _ _ _ Hhs Ho' Hstep) as [Hc|(_ & _ & Hat & _)]; [|lia].
  split; [lia|congruence].
Qed.

End Tamper.

Lemma table_single_genuine : forall k n0 a0 c0 p0 key n a c p,
  table_dec [(k, n0, a0, c0, p0)] key n a c = Some p -> a = [] \/ (n = n0 /\ a = a0 /\ c = c0).
Proof.
  intros k n0 a0 c0 p0 key n a c p H. cbn [table_dec] in H.
  destruct (_ && _) eqn:E; [|discriminate]. right.
  apply andb_prop in E. destruct E as [E Ec]. apply andb_prop in E. destruct E as [E Ea].
  apply andb_prop in E. destruct E as [_ En].
  repeat split; apply bytes_eqb_true; assumption.
Qed.
