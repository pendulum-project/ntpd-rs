(* C41: enumerations and the ten message bodies, both directions of the round trip. *)
From V Require Import Model.PtpWire Proofs.Common Proofs.WireBytes Proofs.PtpWireDeSer1.

Lemma acc_ser_de : forall a, acc_ok a -> acc_encodable a = true -> acc_from_prim (acc_to_prim a) = a /\ is_byte (acc_to_prim a).
Proof.
  intros [|c|v|] Hok He; unfold acc_from_prim, acc_to_prim, is_byte; cbn [acc_ok acc_encodable] in *.
  - split; [reflexivity|lia].
  - replace ((c <=? 22) || (50 <=? c) && (c <=? 127) || (c =? 255)) with false by lia.
    replace (c <=? 49) with true by lia. split; [reflexivity|lia].
  - unfold is_byte in Hok. assert (v <= 125) by lia.
    rewrite (Z.mod_small (128 + v) 256) by lia.
    replace ((128 + v <=? 22) || (50 <=? 128 + v) && (128 + v <=? 127) || (128 + v =? 255)) with false by lia.
    replace (128 + v <=? 49) with false by lia. replace (128 + v =? 254) with false by lia.
    split; [f_equal; lia|lia].
  - split; [reflexivity|lia].
Qed.

Lemma tsrc_ser_de : forall t, tsrc_encodable t = true -> tsrc_from_prim (tsrc_to_prim t) = t.
Proof. intros t H. apply tsrc_eqb_eq. exact H. Qed.

Lemma tsrc_prim_byte : forall t, tsrc_ok t -> is_byte (tsrc_to_prim t).
Proof. intros [] H; cbn [tsrc_ok tsrc_to_prim] in *; unfold is_byte in *; lia. Qed.

Lemma action_ser_de : forall a, action_from_prim (action_to_prim a) = a /\ is_byte (action_to_prim a).
Proof. intros []; split; try reflexivity; unfold is_byte; cbn; lia. Qed.

Lemma ser_body_length : forall b old, body_ok b -> length (ser_body b old) = body_size b.
Proof.
  intros b old H. destruct b; unfold body_ok, pid_ok in H; cbn [ser_body body_size body_type type_size Z.eqb Pos.eqb];
    unfold ts_ser, pid_ser, cq_ser; rewrite ?app_length, ?be_length; cbn [length]; try reflexivity.
  all: try (destruct H as (_ & _ & -> & _); reflexivity).
  - destruct H as (_ & _ & _ & _ & _ & _ & -> & _). reflexivity.
  - destruct H as (_ & -> & _). reflexivity.
  - destruct H as ((_ & -> & _) & _). reflexivity.
Qed.

Lemma body_type_ok : forall b, msgtype_ok (body_type b) = true.
Proof. intros []; reflexivity. Qed.

Lemma de_body_len : forall ty c b, de_body ty c = Ok b -> (type_size ty <= length c)%nat.
Proof. intros ty c b H. unfold de_body in H. destr_if H; [discriminate|]. lia. Qed.

(* de_body reads the first [type_size ty] bytes only *)
Lemma de_body_prefix : forall ty d rest, In ty msg_types -> length d = type_size ty ->
  de_body ty (d ++ rest) = de_body ty d.
Proof.
  intros ty d rest Hin Hl. unfold de_body. rewrite app_length, Hl, Nat.ltb_irrefl.
  replace (type_size ty + length rest <? type_size ty)%nat with false by lia.
  unfold msg_types in Hin. cbn [In] in Hin.
  destruct Hin as [<-|[<-|[<-|[<-|[<-|[<-|[<-|[<-|[<-|[<-|[]]]]]]]]]]]; cbv [type_size Z.eqb Pos.eqb] in Hl |- *;
    rewrite ?slice_app_l, ?byte_app_l by lia; reflexivity.
Qed.

(* writes the small fields out as bytes and computes the reads *)
Ltac wire_compute :=
  unfold ts_ser, pid_ser, pid_de, cq_ser, cq_de, slice, byte;
  cbv [be app nth firstn skipn Nat.sub ts_secs ts_nanos pid_clock pid_port cq_class cq_acc cq_var res_bind].

(* serialise then parse.  Timestamps and port identities are read back by [ts_ser_de] and
   [pid_ser_de]; for the two bodies with many small fields the bytes are written out and the
   reads computed. *)
Lemma body_ser_de : forall b old rest,
  body_ok b -> body_encodable b = true -> de_body (body_type b) (ser_body b old ++ rest) = Ok b.
Proof.
  intros b old rest Hok He.
  rewrite de_body_prefix by (apply msgtype_in, body_type_ok || apply ser_body_length, Hok).
  unfold de_body. rewrite (ser_body_length b old Hok). unfold body_size. rewrite Nat.ltb_irrefl.
  destruct b as [t|t|t|t p|t|t p|t p|[s n] utc p1 [cls acc var] p2 gm steps src|p|[ck pt] sh hp act];
    cbn [body_type ser_body Z.eqb Pos.eqb]; cbn [body_ok] in Hok.
  (* Sync, DelayReq, FollowUp *)
  1,2,5: rewrite slice_full, ts_ser_de_exact by (exact Hok || apply ts_ser_length); reflexivity.
  (* PDelayResp, DelayResp, PDelayRespFollowUp *)
  2,3,4: destruct Hok as [Ht Hp];
    rewrite slice_0, ts_ser_de_exact, slice_app_r, slice_full, pid_ser_de
      by (assumption || apply ts_ser_length || apply pid_ser_length, Hp); reflexivity.
  - (* PDelayReq *)
    rewrite slice_full, ts_ser_de by (exact Hok || rewrite app_length, ts_ser_length; reflexivity). reflexivity.
  - (* Announce *)
    unfold ts_ok, cq_ok, is_byte in Hok. cbn [ts_secs ts_nanos cq_class cq_acc cq_var] in Hok.
    destruct Hok as ((Hs & Hn) & Hutc & Hp1 & (Hcls & Hacc & Hvar) & Hp2 & Hgm & Hgl & Hsteps & Hsrc).
    destruct (explicit_bytes 8 gm Hgm Hgl) as (G & _ & ->). cbn [map seq].
    cbn [body_encodable cq_acc] in He. apply andb_prop in He. destruct He as [Hea Het].
    destruct (acc_ser_de acc Hacc Hea) as [Ra _]. pose proof (tsrc_ser_de src Het) as Rt.
    unfold ts_de. wire_compute. cbn [length Nat.ltb Nat.leb].
    unbe_rewrite s 6%nat. unbe_rewrite n 4%nat. unbe_rewrite utc 2%nat. unbe_rewrite var 2%nat. unbe_rewrite steps 2%nat.
    change (256 ^ Z.of_nat 6) with (2 ^ 48). change (256 ^ Z.of_nat 4) with (2 ^ 32). change (256 ^ Z.of_nat 2) with (2 ^ 16).
    rewrite (to_signed_wrap 16 utc eq_refl Hutc). change (2 ^ 16) with 65536.
    rewrite (Z.mod_small s), (Z.mod_small n), (Z.mod_small var), (Z.mod_small steps) by lia.
    replace (n >? 1000000000) with false by lia.
    rewrite Ra, Rt. reflexivity.
  - (* Signaling *)
    rewrite slice_full, pid_ser_de by (exact Hok || apply pid_ser_length, Hok). reflexivity.
  - (* Management *)
    destruct Hok as ((Hck & Hcl & Hpt) & Hsh & Hhp). cbn [pid_clock pid_port] in *.
    destruct (explicit_bytes 8 ck Hck Hcl) as (C & _ & ->). cbn [map seq]. wire_compute.
    unbe_rewrite pt 2%nat. rewrite (Z.mod_small pt _ Hpt : pt mod 256 ^ Z.of_nat 2 = pt).
    destruct (action_ser_de act) as [-> _]. reflexivity.
Qed.

Definition body_de_ser_stmt (ty : Z) (d : bytes) (b : body) (old : bytes) : Prop :=
  ser_body b old = mapi_from (norm_byte ty) 34 d /\ body_encodable b = true /\ body_type b = ty /\ body_ok b.

(* seven of the ten types have no reserved body position: the body is written as it was read *)
Lemma body_de_ser_plain : forall ty d b old, ty <> 2 -> ty <> 11 -> ty <> 13 ->
  ser_body b old = d -> body_encodable b = true -> body_type b = ty -> body_ok b -> body_de_ser_stmt ty d b old.
Proof.
  intros ty d b old H2 H11 H13 Hs He Ht Hok. split; [|auto].
  rewrite mapi_from_id; [exact Hs|]. intros j x Hj. apply norm_plain; assumption.
Qed.

(* computes the mask on a body that is written out *)
Ltac norm_rhs := cbv [mapi_from norm_byte Nat.eqb Nat.leb andb orb Z.eqb Pos.eqb].

(* In the other three the body is written out as the list of its bytes ([explicit_bytes]) so that
   the mask computes; timestamps and port identities stay folded and go back to their bytes by
   [ts_de_ser] and [pid_de_ser], the other fields by [be_unbe] on the computed slice. *)
Theorem body_de_ser : forall ty d rest b old,
  In ty msg_types -> (forall i, byte i old = 0) ->
  bytes_ok d -> length d = type_size ty -> de_body ty (d ++ rest) = Ok b -> body_de_ser_stmt ty d b old.
Proof.
  intros ty d rest b old Hin Hold Hb Hl H. rewrite de_body_prefix in H by assumption.
  unfold de_body in H. rewrite Hl, Nat.ltb_irrefl in H.
  unfold msg_types in Hin. cbn [In] in Hin.
  destruct Hin as [<-|[<-|[<-|[<-|[<-|[<-|[<-|[<-|[<-|[<-|[]]]]]]]]]]]; cbn [type_size Z.eqb Pos.eqb] in Hl, H.
  (* Sync, DelayReq, FollowUp: one timestamp *)
  1,2,5: rewrite slice_full in H by exact Hl; apply bind_ok in H; destruct H as (t & Et & H); apply Ok_inj in H; subst b;
    destruct (ts_de_ser d t Hb Hl Et) as [Es Hok]; apply body_de_ser_plain; auto; discriminate.
  (* PDelayResp, DelayResp, PDelayRespFollowUp: a timestamp and a port identity *)
  2,3,4: apply bind_ok in H; destruct H as (t & Et & H); apply Ok_inj in H; subst b;
    destruct (ts_de_ser _ t (slice_bytes 0 10 d Hb) (slice_length 0 10 d ltac:(lia) ltac:(lia)) Et) as [Es Hok];
    destruct (pid_de_ser _ (slice_bytes 10 20 d Hb) (slice_length 10 20 d ltac:(lia) ltac:(lia))) as [Ep Hpok];
    (apply body_de_ser_plain; [discriminate|discriminate|discriminate| |reflexivity|reflexivity|exact (conj Hok Hpok)]);
    cbn [ser_body]; rewrite Es, Ep, slice_join by lia; apply slice_full; exact Hl.
  (* the three types with reserved positions: the body written out, the reads computed *)
  1,2,4: destruct (explicit_bytes _ d Hb Hl) as (B & Y & ->); cbn [map seq] in *;
    pose proof (fun a b => slice_bytes a b _ Hb) as K;
    unfold cq_de, slice, byte in H; cbv [firstn skipn Nat.sub nth] in H.
  (* PDelayReq and Announce begin with a timestamp *)
  1,2: apply bind_ok in H; destruct H as (t & Et & H); apply Ok_inj in H; subst b;
    destruct (ts_de_ser _ t (K 0 10)%nat eq_refl Et) as [Es Hok]; cbv [slice firstn skipn Nat.sub] in Es.
  - (* PDelayReq: then ten reserved bytes *)
    unfold body_de_ser_stmt. cbn [ser_body body_encodable body_type body_ok]. rewrite Es. norm_rhs. auto.
  - (* Announce *)
    destruct (acc_from_ok _ (Y 15%nat)) as [A1 A2].
    pose proof (to_signed_range 16 (unbe [B 10; B 11]%nat) eq_refl) as Rutc.
    pose proof (unbe_range _ (K 16 18)%nat) as Rvar. pose proof (unbe_range _ (K 27 29)%nat) as Rst.
    unfold body_de_ser_stmt. cbn [ser_body body_encodable body_type body_ok cq_acc]. rewrite Hold. unfold cq_ser, cq_ok.
    cbv [cq_class cq_acc cq_var]. rewrite Es, tsrc_de_ser, tsrc_from_encodable, A2.
    rewrite (be_signed _ (K 10 12)%nat : be 2 (to_signed 16 (unbe [B 10; B 11]%nat)) = _).
    rewrite (be_unbe 2 _ (K 16 18)%nat eq_refl : be 2 (unbe [B 16; B 17]%nat) = _).
    rewrite (be_unbe 2 _ (K 27 29)%nat eq_refl : be 2 (unbe [B 27; B 28]%nat) = _).
    norm_rhs. repeat (split; [reflexivity|]).
    exact (conj Hok (conj Rutc (conj (Y 13%nat) (conj (conj (Y 14%nat) (conj A1 Rvar))
             (conj (Y 18%nat) (conj (K 19 27)%nat (conj eq_refl (conj Rst (tsrc_from_ok _ (Y 29%nat)))))))))).
  - (* Management *)
    apply Ok_inj in H. subst b.
    destruct (pid_de_ser _ (K 0 10)%nat eq_refl) as [Ep Hpok]. cbv [slice firstn skipn Nat.sub] in Ep, Hpok.
    unfold body_de_ser_stmt. cbn [ser_body body_encodable body_type body_ok]. rewrite Ep, Hold. norm_rhs.
    repeat (split; [reflexivity|]). exact (conj Hpok (conj (Y 11%nat) (Y 12%nat))).
  - (* Signaling: a port identity *)
    rewrite slice_full in H by exact Hl. apply Ok_inj in H. subst b.
    destruct (pid_de_ser d Hb Hl) as [Ep Hpok]. apply body_de_ser_plain; auto; discriminate.
Qed.
