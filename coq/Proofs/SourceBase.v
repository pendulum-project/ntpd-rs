(* Basic facts about the source model shared by the proofs of C07-C10, C12, C14. *)
From V Require Import Model.Source Gen.ConstSource Gen.ConstSourceS2.
(* [lia] on the boolean comparisons of the model *)
From Coq Require Import ZifyBool.
Open Scope Z_scope.

Lemma Forall_trivial : forall {A} (l : list A), Forall (fun _ => True) l.
Proof. intros A l. apply Forall_forall. trivial. Qed.

Lemma st_eta : forall s,
  mkSt (s_nts s) (s_stash s) (s_last_poll s) (s_remote_min s) (s_req s) (s_nsent s) (s_deny s)
       (s_stratum s) (s_reach s) (s_tries s) (s_ver s) = s.
Proof. destruct s; reflexivity. Qed.

Lemma set_ver_same : forall s, set_ver s (s_ver s) = s.
Proof. destruct s; reflexivity. Qed.

Definition uid_bound (p : pkt) (id : Z) : Prop :=
  uids_auth p ++ uids_encr p <> [] /\ Forall (eq id) (uids_auth p ++ uids_encr p).

Lemma forallb_eqb_Forall : forall id l, forallb (Z.eqb id) l = true -> Forall (eq id) l.
Proof.
  induction l; simpl; intros H; constructor.
  - apply andb_prop in H. destruct H as [H _]. now apply Z.eqb_eq in H.
  - apply andb_prop in H. tauto.
Qed.

Lemma Forall_forallb_eqb : forall id l, Forall (eq id) l -> forallb (Z.eqb id) l = true.
Proof.
  induction 1; simpl; auto. subst. rewrite Z.eqb_refl. auto.
Qed.

Lemma check_uid_not_false : forall l id,
  is_some_false (check_uid l id) = false -> Forall (eq id) l.
Proof.
  intros l id. unfold check_uid. destruct l as [|x l]; [constructor|].
  remember (x :: l) as l'. simpl. destruct (forallb (Z.eqb id) l') eqn:E; [|discriminate].
  intros _. now apply forallb_eqb_Forall.
Qed.

Lemma check_uid_some : forall l id, is_some (check_uid l id) = true <-> l <> [].
Proof.
  intros l id. unfold check_uid. destruct l; simpl; split; intros; congruence.
Qed.

Lemma check_uid_nil : forall id, check_uid [] id = None.
Proof. reflexivity. Qed.

(* a valid response that is not an NTS NAK carries, for an NTS source, the
   request's unique identifier under the authenticator *)
Lemma uid_ok_bound : forall p id,
  uid_ok p id true = true -> is_kiss_ntsn p = false -> uid_bound p id.
Proof.
  intros p id H N. unfold uid_ok in H. rewrite N in H. simpl in H.
  apply andb_prop in H. destruct H as [H HD].
  apply andb_prop in H. destruct H as [H _].
  apply andb_prop in H. destruct H as [HA HB].
  apply negb_true_iff in HA. apply negb_true_iff in HB.
  apply check_uid_not_false in HA. apply check_uid_not_false in HB.
  split.
  - rewrite ?andb_false_r, ?orb_false_r in HD.
    apply orb_prop in HD. destruct HD as [A|A]; apply check_uid_some in A;
      intros E; apply app_eq_nil in E; tauto.
  - apply Forall_app; auto.
Qed.

Lemma uid_bound_authenticated : forall p id, uid_bound p id -> authenticated p = true.
Proof.
  intros p id [H _]. unfold uids_auth, uids_encr, authenticated in *.
  destruct (p_sealed p); auto; simpl in H; congruence.
Qed.

(* without a successful authenticator, only an NTS NAK can be a valid response of an NTS source *)
Lemma unauth_valid_is_ntsn : forall p id,
  authenticated p = false -> valid_response p id true = true -> is_kiss_ntsn p = true.
Proof.
  intros p id A V. unfold valid_response in V. apply andb_prop in V. destruct V as [V _].
  destruct (is_kiss_ntsn p) eqn:N; auto.
  apply uid_ok_bound in V; auto. apply uid_bound_authenticated in V. congruence.
Qed.

(* DENY and RSTR are never RATE *)
Lemma deny_not_rate : forall p own,
  is_kiss_rstr p || is_kiss_deny p = true -> is_kiss_rate p own = false.
Proof.
  intros p own. unfold is_kiss_rstr, is_kiss_deny, is_kiss_rate, KISS_DENY, KISS_RSTR, KISS_RATE, POLL_NEVER.
  destruct (is_kiss p); simpl; auto. destruct (is_v5 p); lia.
Qed.

Lemma kiss_of_ntsn : forall p, is_kiss_ntsn p = true -> is_kiss p = true.
Proof. unfold is_kiss_ntsn. intros p H. apply andb_prop in H. tauto. Qed.

(* the request a decoded packet is accepted for: pending, inside its window,
   expected version, valid_server_response *)
Definition accepts (s : st) (now : Z) (p : pkt) : option Z :=
  if expected (s_ver s) (p_ver p) then
    match s_req s with
    | Some (id, dl) => if (dl >=? now) && valid_response p id (s_nts s) then Some id else None
    | None => None
    end
  else None.

Lemma accepts_spec : forall s now p id,
  accepts s now p = Some id <->
  exists dl, s_req s = Some (id, dl) /\ now <= dl /\ expected (s_ver s) (p_ver p) = true
             /\ valid_response p id (s_nts s) = true.
Proof.
  intros s now p id. unfold accepts. split.
  - destruct (expected (s_ver s) (p_ver p)); [|discriminate].
    destruct (s_req s) as [[i dl]|]; [|discriminate].
    destruct (dl >=? now) eqn:D; simpl; [|discriminate].
    destruct (valid_response p i (s_nts s)) eqn:V; [|discriminate].
    intros E. inversion E; subst. exists dl. repeat split; auto. lia.
  - intros (dl & R & D & E & V). rewrite E, R, V.
    assert (dl >=? now = true) as -> by lia. reflexivity.
Qed.

(* the body of handle_incoming after the acceptance test *)
Definition dispatch (c : cfg) (s : st) (id : Z) (p : pkt) : st * list action :=
  let s := set_ver s (ver_after_valid (s_ver s) p) in
  if is_kiss_ntsn p then (s, [])
  else if is_kiss_rate p (s_last_poll s) then
    (set_remote_min s (Z.max (poll_inc c (s_remote_min s)) (s_last_poll s)), [])
  else if is_kiss_rstr p || is_kiss_deny p then
    if s_nts s then (s, [Demobilize]) else (set_deny s true, [])
  else if is_kiss p then (s, [])
  else if p_stratum p >? MAX_STRATUM then (s, [])
  else if negb (p_mode p =? MODE_SERVER) then (s, [])
  else process_message s id p.

Lemma step_incoming_accepts : forall c s now p,
  step_incoming c s now (Some p) =
  match accepts s now p with Some id => dispatch c s id p | None => (s, []) end.
Proof.
  intros c s now p. unfold step_incoming, accepts, dispatch.
  destruct (expected (s_ver s) (p_ver p)); simpl; auto.
  destruct (s_req s) as [[id dl]|]; auto.
  destruct (dl >=? now); simpl; auto.
  destruct (valid_response p id (s_nts s)); simpl; auto.
Qed.

(* fields that handle_incoming never touches *)
Lemma step_incoming_frame : forall c s now op s' acts,
  step_incoming c s now op = (s', acts) ->
  s_nts s' = s_nts s /\ s_last_poll s' = s_last_poll s /\ s_nsent s' = s_nsent s /\ s_tries s' = s_tries s.
Proof.
  intros c s now [p|] s' acts H; [|injection H as <- <-; auto].
  rewrite step_incoming_accepts in H. destruct (accepts s now p) as [id|]; [|injection H as <- <-; auto].
  apply (f_equal fst) in H. cbn [fst] in H. subst s'. unfold dispatch.
  repeat match goal with |- context [if ?b then _ else _] => destruct b end; cbn; auto.
Qed.

(* the timer neither resets nor demobilises: it tries to build a request *)
Definition timer_polls (s : st) : bool :=
  negb ((s_reach s =? 0) && (STARTUP_TRIES_THRESHOLD <=? s_tries s)).

Definition ver_at_timer (s : st) : pver :=
  match s_ver s with
  | Upgraded => if unanswered_at_least (s_reach s) AFTER_UPGRADE_TRIES_THRESHOLD then V4 else Upgraded
  | v => v
  end.

(* the state after a timer step that went on to build a request (or failed to) *)
Definition polled (s : st) (lp : Z) (req : option (Z * Z)) (nsent : Z) : st :=
  mkSt (s_nts s) (if s_nts s then tl (s_stash s) else s_stash s) lp (s_remote_min s) req nsent
       (s_deny s) (s_stratum s) (reach_poll (s_reach s)) (Z.min (s_tries s + 1) usize_max) (ver_at_timer s).

(* the timer step at [now] with desire [d] built request [r] *)
Definition timer_sends (s : st) (now d : Z) (s' : st) (acts : list action) (r : request) : Prop :=
  acts = [Send r; SetTimer (system_duration_secs (Z.max d (s_remote_min s)))]
  /\ s' = polled s (Z.max d (s_remote_min s)) (Some (s_nsent s, now + POLL_WINDOW_SECS * 1000)) (s_nsent s + 1)
  /\ r_poll r = Z.max d (s_remote_min s) /\ r_id r = s_nsent s
  /\ r_ver r = (if request_v5 (s_nts s) (ver_at_timer s) then 5 else 4)
  /\ r_upgrade r = request_upgrade (s_nts s) (ver_at_timer s)
  /\ r_len r <= SEND_BUFFER_SIZE.

(* complete case analysis of handle_timer *)
Lemma step_timer_inv : forall c s now d s' acts,
  step_timer c s now d = Ok (s', acts) ->
  (timer_polls s = false /\ s' = s /\ acts = [if s_deny s then Demobilize else Reset]) \/
  (timer_polls s = true /\ s_nts s = true /\ acts = [Reset]
   /\ s' = polled s (s_last_poll s) (s_req s) (s_nsent s)) \/
  (timer_polls s = true /\ exists r, timer_sends s now d s' acts r).
Proof.
  intros c s now d s' acts. unfold step_timer, timer_polls, timer_sends, polled.
  destruct ((s_reach s =? 0) && (STARTUP_TRIES_THRESHOLD <=? s_tries s)); cbv zeta.
  - intros H. injection H as <- <-. left. auto.
  - fold (ver_at_timer s). destruct (s_nts s) eqn:N.
    + destruct (s_stash s) as [|k rest] eqn:S.
      * intros H. injection H as <- <-. right. left. auto.
      * destruct (_ =? 0).
        { intros H. injection H as <- <-. right. left. auto. }
        destruct (_ && _) eqn:F; [|discriminate].
        intros H. injection H as <- <-. right. right. split; auto.
        eexists. split; [reflexivity|].
        apply andb_prop in F. destruct F as [F _].
        cbn [r_poll r_id r_ver r_upgrade r_len tl request_upgrade].
        repeat split; auto. apply Z.leb_le. exact F.
    + destruct (_ <=? _) eqn:F; [|discriminate].
      intros H. injection H as <- <-. right. right. split; auto.
      eexists. split; [reflexivity|].
      cbn [r_poll r_id r_ver r_upgrade r_len].
      repeat split; auto. apply Z.leb_le. exact F.
Qed.

(* a request among the actions: the third case, and it is that request *)
Lemma step_timer_send : forall c s now d s' acts r,
  step_timer c s now d = Ok (s', acts) -> In (Send r) acts ->
  timer_polls s = true /\ timer_sends s now d s' acts r.
Proof.
  intros c s now d s' acts r H I. apply step_timer_inv in H.
  destruct H as [(_ & _ & ->)|[(_ & _ & -> & _)|(P & r' & T)]].
  - destruct (s_deny s); destruct I as [I|[]]; discriminate.
  - destruct I as [I|[]]; discriminate.
  - pose proof T as (-> & _). destruct I as [I|[I|[]]]; [|discriminate].
    injection I as <-. auto.
Qed.

Lemma step_timer_ver : forall c s now d s' acts,
  step_timer c s now d = Ok (s', acts) ->
  s_ver s' = if timer_polls s then ver_at_timer s else s_ver s.
Proof.
  intros c s now d s' acts H. apply step_timer_inv in H.
  destruct H as [(P & -> & _)|[(P & _ & _ & ->)|(P & r & _ & -> & _)]]; rewrite P; reflexivity.
Qed.

(* fields a timer step never touches *)
Lemma step_timer_frame : forall c s now d s' acts,
  step_timer c s now d = Ok (s', acts) ->
  s_nts s' = s_nts s /\ s_deny s' = s_deny s /\ s_stratum s' = s_stratum s /\ s_remote_min s' = s_remote_min s.
Proof.
  intros c s now d s' acts H. apply step_timer_inv in H.
  destruct H as [(P & -> & _)|[(P & _ & _ & ->)|(P & r & _ & -> & _)]]; simpl; auto.
Qed.

Lemma run_cons : forall c s e evs s' tr,
  run c s (e :: evs) = Ok (s', tr) ->
  exists s1 a tr', step c s e = Ok (s1, a) /\ run c s1 evs = Ok (s', tr') /\ tr = a :: tr'.
Proof.
  intros c s e evs s' tr H. simpl in H.
  destruct (step c s e) as [[s1 a]| |] eqn:E1; try discriminate.
  destruct (run c s1 evs) as [[s2 tr']| |] eqn:E2; try discriminate.
  injection H as <- <-. exists s1, a, tr'. auto.
Qed.

(* [P] of every request among the actions.  [send_ok], [send_within] and the matches written
   out in the statements about runs are instances of it, up to conversion. *)
Definition on_send (P : request -> Prop) (a : action) : Prop :=
  match a with Send r => P r | _ => True end.

Lemma Forall_on_send : forall (P : request -> Prop) acts, (forall r, In (Send r) acts -> P r) -> Forall (on_send P) acts.
Proof. intros P acts H. apply Forall_forall. intros [r| | | |] I; simpl; auto. Qed.

(* what single steps on events satisfying [E] preserve ([I], of the state) and
   establish ([P], of each action) holds along every run over such events *)
Lemma run_forall : forall (E : event -> Prop) (I : st -> Prop) (P : action -> Prop) c,
  (forall s e s' a, E e -> I s -> step c s e = Ok (s', a) -> I s' /\ Forall P a) ->
  forall evs s s' tr, Forall E evs -> I s -> run c s evs = Ok (s', tr) ->
  I s' /\ Forall P (concat tr).
Proof.
  intros E I P c Hstep. induction evs as [|e evs IH]; intros s s' tr He Hi H.
  - injection H as <- <-. split; [assumption|constructor].
  - apply run_cons in H. destruct H as (s1 & a & tr' & H1 & H2 & ->).
    inversion He as [|? ? E1 E2]; subst.
    destruct (Hstep _ _ _ _ E1 Hi H1) as [I1 F1]. destruct (IH _ _ _ E2 I1 H2) as [I2 F2].
    split; [assumption|]. simpl. apply Forall_app. auto.
Qed.

(* a property of single steps that is an invariant holds along every run *)
Lemma run_invariant : forall (I : st -> Prop) c,
  (forall s e s' a, I s -> step c s e = Ok (s', a) -> I s') ->
  forall evs s s' tr, I s -> run c s evs = Ok (s', tr) -> I s'.
Proof.
  intros I c Hstep evs s s' tr Hi H.
  refine (proj1 (run_forall (fun _ => True) I (fun _ => True) c _ evs s s' tr (Forall_trivial _) Hi H)).
  intros s0 e s1 a _ Hi0 H0. split; [eauto|apply Forall_trivial].
Qed.
