(* Proofs for C24, second half: the re-encoding of an accepted packet decodes to a packet
   that encodes to the same bytes (parse-of-print for headers, every field kind, MAC). *)
From V Require Import Model.Packet Proofs.Common Proofs.Bytes Proofs.Packet Proofs.RoundTrip.
From V Require Import Gen.ConstPacket.

(* every field kind is encoded as a framed message: type id, length, message, padding to a multiple
   of 4; the streamer reads the message back and skips the padding *)
Lemma framed_print : forall tid msg pad rest v5, 0 <= tid < 65536 -> blen msg <= 65531 ->
  (v5 = false -> blen msg mod 4 = 0) -> blen pad = nm4 (blen msg + 4) - (blen msg + 4) ->
  raw_deserialize (to_be 2 tid ++ to_be 2 (blen msg + 4) ++ msg ++ pad ++ rest) 4 v5 = Ok (tid, msg) /\
  wire_length msg = blen (to_be 2 tid ++ to_be 2 (blen msg + 4) ++ msg ++ pad).
Proof.
  intros tid msg pad rest v5 Ht Hl Hm Hp. pose proof (blen_nonneg msg). pose proof (blen_nonneg rest). split.
  - apply raw_ok.
    exists (tid / 256 mod 256), (tid mod 256), ((blen msg + 4) / 256 mod 256), ((blen msg + 4) mod 256), (msg ++ pad ++ rest).
    replace ((blen msg + 4) / 256 mod 256 * 256 + (blen msg + 4) mod 256) with (blen msg + 4) by lia.
    replace (blen msg + 4 - 4) with (blen msg) by lia. rewrite btake_app, !blen_app.
    split; [reflexivity|]. repeat split; try assumption; lia.
  - unfold wire_length. rewrite !blen_app, !blen_to_be. replace (2 + 2 + blen msg) with (blen msg + 4) by lia. lia.
Qed.

(* the message the decoder reads back from the wire image of the byte string d: before v5 it
   includes the padding up to the minimum field size *)
Definition msgb (v5 : bool) (minimum : Z) (d : bytes) : bytes :=
  if v5 then d else d ++ zeros (Z.max (blen d + 4) minimum - blen d - 4).

(* the minimum sizes the encoder passes: EF_MIN_V5, or EF_MIN_V4 / EF_MIN_V4_LAST before v5 *)
Definition min_ok (v5 : bool) (minimum : Z) : Prop :=
  if v5 then minimum = 4 else (minimum = 16 \/ minimum = 28).

Lemma bytes_print : forall v5 minimum tid d rest, data_ok v5 d -> min_ok v5 minimum -> 0 <= tid < 65536 ->
  raw_deserialize (bytes_field_wire tid d minimum v5 ++ rest) 4 v5 = Ok (tid, msgb v5 minimum d) /\
  wire_length (msgb v5 minimum d) = blen (bytes_field_wire tid d minimum v5) /\
  blen (msgb v5 minimum d) <= 65531 /\ (v5 = false -> blen (msgb v5 minimum d) mod 4 = 0) /\
  bytes_field_wire tid (msgb v5 minimum d) minimum v5 = bytes_field_wire tid d minimum v5.
Proof.
  intros v5 minimum tid d rest (Hwf & Hlen & Hmod) Hmin Htid.
  pose proof (blen_nonneg d) as Hd0. pose proof (blen_nonneg rest) as Hr0.
  unfold bytes_field_wire, EF_HEADER_LENGTH, wire_length. cbv zeta.
  replace ((blen d + 4) mod 65536) with (blen d + 4) by lia.
  set (A := Z.max (blen d + 4) minimum). set (M := msgb v5 minimum d).
  (* A is the length the field announces; its message M is the A - 4 bytes after the field header,
     and what follows up to the next multiple of 4 is padding the streamer skips *)
  assert (blen d + 4 <= A < 65536 /\ minimum <= A /\ (v5 = false -> A mod 4 = 0) /\
          (if v5 then A else nm4_u16 A) = A /\ blen M = A - 4 /\
          d ++ zeros (nm4 A - blen d - 4) = M ++ zeros (nm4 A - A)) as (HA & HAm & HA4 & HAf & HM & HMw).
  { unfold M, msgb, min_ok in *. fold A. destruct v5.
    - assert (A = blen d + 4) as -> by (unfold A; lia).
      repeat split; try lia; try discriminate. do 2 f_equal. lia.
    - specialize (Hmod eq_refl). assert (A mod 4 = 0) as H4 by (unfold A; lia).
      unfold nm4_u16. rewrite H4, (nm4_fix A H4), blen_app, blen_zeros, Z.sub_diag, app_nil_r by (unfold A; lia).
      repeat split; try lia; auto. }
  rewrite HAf, HMw, <- !app_assoc.
  destruct (framed_print tid M (zeros (nm4 A - A)) rest v5 Htid ltac:(lia) ltac:(intros Hv; specialize (HA4 Hv); lia)
              ltac:(pose proof (nm4_ge A); rewrite blen_zeros, HM by lia; replace (A - 4 + 4) with A by lia; reflexivity))
    as (F1 & F2).
  unfold wire_length in F2. rewrite HM in *. replace (A - 4 + 4) with A in * by lia.
  split; [exact F1|]. split; [exact F2|]. split; [lia|]. split; [intros Hv; specialize (HA4 Hv); lia|].
  replace (Z.max (A mod 65536) minimum) with A by lia. replace (Z.max A minimum) with A by lia.
  rewrite HAf. replace (nm4 A - (A - 4) - 4) with (nm4 A - A) by lia. reflexivity.
Qed.

Lemma zeros_app : forall a b, 0 <= a -> 0 <= b -> zeros a ++ zeros b = zeros (a + b).
Proof. intros a b Ha Hb. unfold zeros. rewrite <- repeat_app. f_equal. lia. Qed.

Lemma data_ok_msgb : forall v5 minimum d, data_ok v5 d -> min_ok v5 minimum -> data_ok v5 (msgb v5 minimum d).
Proof.
  intros v5 minimum d Hd Hm. pose proof (bytes_print v5 minimum 0 d [] Hd Hm ltac:(lia)) as (_ & _ & Hl & Hmod & _).
  destruct Hd as (Hwf & _ & _). repeat split; try assumption.
  unfold msgb. destruct v5; [assumption|]. apply wf_app; [assumption|apply wf_zeros].
Qed.

Definition norm_field (v5 : bool) (minimum : Z) (f : ef) : ef :=
  match f with
  | EfUid d => EfUid (msgb v5 minimum d)
  | EfCookie d => EfCookie (msgb v5 minimum d)
  | EfPlaceholder n => EfPlaceholder (blen (msgb v5 minimum (zeros n)))
  | EfUnknown t d => EfUnknown t (msgb v5 minimum d)
  | other => other
  end.

Definition tid_of (f : ef) : Z :=
  match f with
  | EfUid _ => T_UID | EfCookie _ => T_COOKIE | EfPlaceholder _ => T_PLACEHOLDER | EfDraft _ => T_DRAFT
  | EfRefReq _ _ => T_REFREQ | EfRefResp _ => T_REFRESP | EfUnknown t _ => t | _ => 0
  end.

Definition msg_of (v5 : bool) (minimum : Z) (f : ef) : bytes :=
  match f with
  | EfUid d | EfCookie d | EfUnknown _ d | EfDraft d => msgb v5 minimum d
  | EfPlaceholder n => msgb v5 minimum (zeros n)
  | EfRefReq plen off => to_be 2 off ++ [0; 0] ++ zeros (4 * (plen / 4 - 1))
  | EfRefResp b => b
  | _ => []
  end.

Lemma decode_placeholder : forall m v5, decode_field T_PLACEHOLDER m v5 =
  if all_zero m then Ok (EfPlaceholder (blen m mod 65536)) else Err E_MalformedPlaceholder.
Proof. reflexivity. Qed.
Lemma decode_draft : forall m, decode_field T_DRAFT m true =
  if all_ascii m then Ok (EfDraft m) else Err E_V5_InvalidDraft.
Proof. reflexivity. Qed.
Lemma decode_refreq : forall m, decode_field T_REFREQ m true =
  do r <- refreq_decode m;
  let '(plen, off) := r in if plen mod 4 =? 0 then Ok (EfRefReq plen off) else Err E_IncorrectLength.
Proof. reflexivity. Qed.

Lemma field_print : forall v5 minimum f rest, field_ok v5 f -> min_ok v5 minimum ->
  raw_deserialize (field_wire v5 minimum f ++ rest) 4 v5 = Ok (tid_of f, msg_of v5 minimum f) /\
  wire_length (msg_of v5 minimum f) = blen (field_wire v5 minimum f) /\
  decode_field (tid_of f) (msg_of v5 minimum f) v5 = Ok (norm_field v5 minimum f) /\
  (tid_of f =? T_ENCRYPTED) = false /\
  field_ok v5 (norm_field v5 minimum f) /\
  field_wire v5 minimum (norm_field v5 minimum f) = field_wire v5 minimum f.
Proof.
  intros v5 minimum f rest Hf Hm. destruct f; cbn [field_ok] in Hf; try contradiction;
    cbn [field_wire tid_of msg_of norm_field].
  - destruct (bytes_print v5 minimum T_UID b rest Hf Hm ltac:(unfold T_UID; lia)) as (H1 & H2 & _ & _ & H5).
    repeat split; try assumption; try reflexivity; apply (data_ok_msgb v5 minimum b Hf Hm).
  - destruct (bytes_print v5 minimum T_COOKIE b rest Hf Hm ltac:(unfold T_COOKIE; lia)) as (H1 & H2 & _ & _ & H5).
    repeat split; try assumption; try reflexivity; apply (data_ok_msgb v5 minimum b Hf Hm).
  - destruct Hf as (Hn & Hnm).
    assert (data_ok v5 (zeros cookie_length)) as Hd.
    { repeat split; [apply wf_zeros|rewrite blen_zeros by lia; lia|intros Hv; rewrite blen_zeros by lia; auto]. }
    destruct (bytes_print v5 minimum T_PLACEHOLDER (zeros cookie_length) rest Hd Hm ltac:(unfold T_PLACEHOLDER; lia))
      as (H1 & H2 & H3 & H4 & H5).
    assert (all_zero (msgb v5 minimum (zeros cookie_length)) = true) as Hz.
    { unfold msgb. destruct v5; [apply all_zero_zeros|].
      rewrite all_zero_app, !all_zero_zeros. reflexivity. }
    pose proof (blen_nonneg (msgb v5 minimum (zeros cookie_length))) as H0.
    split; [exact H1|]. split; [exact H2|]. split.
    { rewrite decode_placeholder, Hz, Z.mod_small by lia. reflexivity. }
    split; [reflexivity|]. split; [split; [lia|exact H4]|].
    rewrite <- (all_zero_eq_zeros _ Hz). exact H5.
  - destruct Hf as (-> & Hd & Ha). unfold min_ok in Hm. subst minimum.
    destruct (bytes_print true 4 T_DRAFT b rest Hd eq_refl ltac:(unfold T_DRAFT; lia)) as (H1 & H2 & _ & _ & H5).
    split; [exact H1|]. split; [exact H2|]. split; [unfold msgb; rewrite decode_draft, Ha; reflexivity|].
    split; [reflexivity|]. split; [split; [reflexivity|split; [exact Hd|exact Ha]]|reflexivity].
  - destruct Hf as (-> & Hp & Hp4 & Ho). unfold refreq_wire.
    set (body := to_be 2 offset ++ [0; 0] ++ zeros (4 * (payload_len / 4 - 1))).
    assert (blen body = payload_len) as Hb.
    { unfold body. rewrite !blen_app, blen_to_be, blen_zeros by lia. change (blen [0; 0]) with 2. lia. }
    replace ((payload_len + 4) mod 65536) with (blen body + 4) by lia.
    destruct (framed_print T_REFREQ_to body [] rest true ltac:(unfold T_REFREQ_to; lia) ltac:(lia) ltac:(discriminate)
                ltac:(rewrite nm4_fix by lia; change (blen []) with 0; lia)) as (F1 & F2).
    rewrite app_nil_r in F2. rewrite <- !app_assoc. split; [exact F1|]. split; [exact F2|].
    split.
    { rewrite decode_refreq. unfold refreq_decode. rewrite Hb. replace (payload_len >? 65535) with false by lia.
      rewrite slice_in by lia. change (btake (2 - 0) (bdrop 0 body)) with (btake (blen (to_be 2 offset)) body).
      unfold body. rewrite btake_app. cbn [res_bind].
      rewrite be_to_be by (change (256 ^ Z.of_nat 2) with 65536; lia).
      replace (payload_len mod 4 =? 0) with true by lia. reflexivity. }
    split; [reflexivity|]. split; [repeat split; try assumption; lia|reflexivity].
  - destruct Hf as (-> & Hwf & Hl & _). unfold refresp_wire. cbv zeta.
    pose proof (blen_nonneg b). pose proof (blen_nonneg rest).
    replace ((blen b + 4) mod 65536) with (blen b + 4) by lia.
    set (pad := if (blen b + 4) mod 4 =? 0 then [] else zeros (4 - (blen b + 4) mod 4)).
    assert (blen pad = nm4 (blen b + 4) - (blen b + 4)) as Hp.
    { unfold pad, nm4. destruct ((blen b + 4) mod 4) eqn:E.
      - cbn. lia.
      - replace (Z.pos p =? 0) with false by lia. rewrite blen_zeros by lia. lia.
      - lia. }
    destruct (framed_print T_REFRESP_to b pad rest true ltac:(unfold T_REFRESP_to; lia) Hl ltac:(discriminate) Hp) as (F1 & F2).
    rewrite <- !app_assoc. split; [exact F1|]. split; [exact F2|].
    split; [reflexivity|].
    split; [reflexivity|]. split; [repeat split; try assumption; discriminate|reflexivity].
  - destruct Hf as (Hd & Ht & Hne & Hpl).
    destruct (bytes_print v5 minimum type_id b rest Hd Hm Ht) as (H1 & H2 & _ & _ & H5).
    split; [exact H1|]. split; [exact H2|]. split; [apply Hpl|]. split; [lia|].
    split; [|exact H5]. split; [exact (data_ok_msgb v5 minimum b Hd Hm)|]. split; [exact Ht|]. split; [exact Hne|exact Hpl].
Qed.

Definition min_at (v5 : bool) (fs' : list ef) : Z :=
  if v5 then EF_MIN_V5 else match fs' with [] => EF_MIN_V4_LAST | _ => EF_MIN_V4 end.

Lemma min_at_ok : forall v5 fs', min_ok v5 (min_at v5 fs').
Proof. intros [|] fs'; cbn; [reflexivity|]. destruct fs'; [right|left]; reflexivity. Qed.

Fixpoint norm_fields (v5 : bool) (fs : list ef) : list ef :=
  match fs with
  | [] => []
  | f :: fs' => norm_field v5 (min_at v5 fs') f :: norm_fields v5 fs'
  end.

Lemma fields_wire_cons : forall v5 f fs', fields_wire v5 (f :: fs') = field_wire v5 (min_at v5 fs') f ++ fields_wire v5 fs'.
Proof. reflexivity. Qed.

Lemma norm_fields_nil_iff : forall v5 fs, norm_fields v5 fs = [] <-> fs = [].
Proof. intros v5 [|f fs]; cbn; split; intros H; try reflexivity; discriminate. Qed.

Lemma min_at_norm : forall v5 fs, min_at v5 (norm_fields v5 fs) = min_at v5 fs.
Proof. intros [|] [|f fs]; reflexivity. Qed.

Lemma norm_fields_ok : forall v5 fs, Forall (field_ok v5) fs ->
  Forall (field_ok v5) (norm_fields v5 fs) /\ fields_wire v5 (norm_fields v5 fs) = fields_wire v5 fs.
Proof.
  intros v5. induction fs as [|f fs IH]; intros H; [split; [constructor|reflexivity]|].
  inversion H; subst. destruct (IH H3) as (IH1 & IH2).
  destruct (field_print v5 (min_at v5 fs) f [] H2 (min_at_ok v5 fs)) as (_ & _ & _ & _ & Hok & Hw).
  cbn [norm_fields]. split; [constructor; assumption|].
  rewrite !fields_wire_cons. rewrite min_at_norm, Hw, IH2. reflexivity.
Qed.

Lemma bytes_field_wire_len : forall tid d minimum v5,
  Z.max (blen d + 4) minimum <= blen (bytes_field_wire tid d minimum v5).
Proof.
  intros tid d minimum v5. unfold bytes_field_wire, EF_HEADER_LENGTH. rewrite !blen_app, !blen_to_be.
  pose proof (nm4_ge (Z.max (blen d + 4) minimum)). pose proof (blen_nonneg d).
  rewrite blen_zeros by lia. lia.
Qed.

Lemma blen_framed_ge4 : forall a b X, 4 <= blen (to_be 2 a ++ to_be 2 b ++ X).
Proof. intros. rewrite !blen_app, !blen_to_be. pose proof (blen_nonneg X). lia. Qed.

(* every wire image starts with two 2-byte numbers; before v5 only byte-string fields occur, and
   they are padded up to the minimum *)
Lemma field_wire_len : forall v5 minimum f, field_ok v5 f ->
  4 <= blen (field_wire v5 minimum f) /\ (v5 = false -> minimum <= blen (field_wire v5 minimum f)).
Proof.
  intros v5 minimum f Hf. split.
  - destruct f; cbn [field_ok] in Hf; try contradiction; apply blen_framed_ge4.
  - intros ->. destruct f; cbn [field_ok] in Hf; try contradiction; try (destruct Hf as (Hf & _); discriminate);
      (eapply Z.le_trans; [apply Z.le_max_r|apply bytes_field_wire_len]).
Qed.

Lemma fields_wire_len : forall v5 fs, Forall (field_ok v5) fs ->
  Z.of_nat (List.length fs) <= blen (fields_wire v5 fs) /\
  (fs <> [] -> (if v5 then 4 else 28) <= blen (fields_wire v5 fs)).
Proof.
  intros v5. induction fs as [|f fs IH]; intros H; [split; [cbn; lia|intros C; contradiction]|].
  inversion H; subst. destruct (IH H3) as (IH1 & IH2).
  destruct (field_wire_len v5 (min_at v5 fs) f H2) as (L4 & Lm).
  rewrite fields_wire_cons, blen_app. cbn [List.length]. split; [lia|]. intros _.
  pose proof (blen_nonneg (fields_wire v5 fs)).
  destruct v5; cbv iota; [lia|]. specialize (Lm eq_refl). destruct fs as [|g fs].
  - unfold min_at, EF_MIN_V4_LAST in *. lia.
  - specialize (IH2 ltac:(discriminate)). lia.
Qed.

(* the state the loop reaches after the printed fields fs, started in st: their normal forms are
   appended to the untrusted list and the size is the offset after them *)
Definition final_state (st : lstate) (v5 : bool) (fs : list ef) (size : Z) : lstate :=
  mkL (mkEfdata (authenticated (l_ef st)) (encrypted (l_ef st)) (untrusted (l_ef st) ++ norm_fields v5 fs))
      size (l_valid st) (l_cookie st).

(* by induction on fs, with the bytes consumed so far as a growing prefix [pre]: the streamer reads
   the first printed field back (field_print), the step pushes its normal form, and the rest is the
   induction hypothesis at pre ++ that field *)
Lemma loop_print : forall dec data hs v5 tail, blen tail <= ef_cutoff v5 ->
  forall fs, Forall (field_ok v5) fs ->
  forall pre fuel st, (List.length fs < fuel)%nat -> l_size st = blen pre ->
  ef_loop fuel dec NoKeys data hs v5 (pre ++ fields_wire v5 fs ++ tail) (blen pre) st
  = Ok (final_state st v5 fs (blen pre + blen (fields_wire v5 fs))).
Proof.
  intros dec data hs v5 tail Htail. pose proof (blen_nonneg tail).
  induction fs as [|f fs IH]; intros Hok pre fuel st Hfuel Hsz; pose proof (blen_nonneg pre);
    (destruct fuel as [|fuel]; [cbn in Hfuel; lia|]); rewrite ef_loop_unfold.
  - cbn [fields_wire app].
    rewrite (proj2 (stream_next_none (pre ++ tail) (ef_cutoff v5) 4 v5 (blen pre) ltac:(rewrite blen_app; lia)))
      by (rewrite blen_app; lia).
    f_equal. unfold final_state. cbn [norm_fields fields_wire]. change (blen []) with 0.
    rewrite app_nil_r, Z.add_0_r, <- Hsz. destruct st as [[a e u] s v c]; reflexivity.
  - inversion Hok as [|? ? Hf Hfs]; subst. rewrite fields_wire_cons, <- app_assoc.
    destruct (field_print v5 (min_at v5 fs) f (fields_wire v5 fs ++ tail) Hf (min_at_ok v5 fs)) as (P1 & P2 & P3 & P4 & _ & _).
    destruct (fields_wire_len v5 (f :: fs) Hok) as (_ & Hlen). specialize (Hlen ltac:(discriminate)).
    rewrite fields_wire_cons, blen_app in Hlen. pose proof (blen_nonneg (fields_wire v5 fs)).
    rewrite (stream_next_app pre _ _ _ _ _ _ P1)
      by (rewrite !blen_app; unfold ef_cutoff, EF_CUTOFF_V5, MAC_MAXIMUM_SIZE in *; destruct v5; lia).
    rewrite (ef_step_plain _ _ _ _ _ _ _ _ _ P4), P3, P2. cbn [res_bind].
    rewrite app_assoc, <- blen_app, IH; [|assumption|cbn [List.length] in Hfuel; lia|reflexivity].
    f_equal. unfold final_state, push_untrusted, set_size. cbn [l_ef l_size l_valid l_cookie authenticated encrypted untrusted norm_fields].
    rewrite <- app_assoc. cbn [app]. rewrite !blen_app. f_equal. lia.
Qed.

(* the encoder writes the leap code of the parsed header, which the parser maps to the same header *)
Lemma leap_norm : forall x l flags, leap_from_bits x = Ok l ->
  0 <= leap_to_bits (fix_leap flags l) <= 3 /\
  exists l', leap_from_bits (leap_to_bits (fix_leap flags l)) = Ok l' /\ fix_leap flags l' = fix_leap flags l.
Proof.
  intros x l flags H.
  assert (l = 0 \/ l = 1 \/ l = 2 \/ l = 4) as Hl.
  { unfold leap_from_bits in H.
    destruct (_ =? 0) in H; [inversion H; lia|]. destruct (_ =? 1) in H; [inversion H; lia|].
    destruct (_ =? 2) in H; [inversion H; lia|]. destruct (_ =? 3) in H; [inversion H; lia|discriminate]. }
  clear H. unfold fix_leap, leap_to_bits, leap_from_bits.
  destruct (flags mod 2 =? 1); cbn [andb negb]; destruct Hl as [-> | [-> | [-> | ->]]]; cbn;
    (split; [clear; lia|eexists; split; reflexivity]).
Qed.

(* the printed v5 header differs from [data] in byte 0 only (the leap bits are normalised) *)
Lemma hdr5_reparse : forall data h X, hdr5_deserialize data = Ok h ->
  header_deserialize (hdr5_wire data h ++ X) = Ok (HV5 h).
Proof.
  intros data h X H. pose proof (hdr5_ok_len _ _ H) as Hlen. pose proof (blen_nonneg X) as HX.
  unfold hdr5_wire. rewrite <- app_assoc.
  assert (blen (btake 47 (bdrop 1 data)) = 47) as Hb47.
  { rewrite blen_btake; [reflexivity|]. rewrite blen_bdrop; lia. }
  (* past byte 0 the new header reads what [data] reads *)
  assert ((forall b i s, 1 <= i < 48 -> idx ([b] ++ btake 47 (bdrop 1 data) ++ X) i s = idx data i s) /\
          (forall b lo hi s, 1 <= lo -> hi <= 48 ->
             range ([b] ++ btake 47 (bdrop 1 data) ++ X) lo hi s = range data lo hi s)) as (Hi & Hr).
  { destruct data as [|d0 tl]; [cbn in Hlen; lia|]. rewrite blen_cons in Hlen.
    change (bdrop 1 (d0 :: tl)) with tl. pose proof (btake_prefix 47 tl X ltac:(lia)) as Hp.
    split; intros; cbn [app]; [rewrite !idx_cons by lia; apply (idx_agree 47)|rewrite !range_cons by lia; apply (range_agree 47)];
      assumption || lia. }
  unfold hdr5_deserialize, HDR5_WIRE_LENGTH in H.
  replace (blen data <? 48) with false in H by lia.
  inv_bind H. destruct (negb _) in H; [discriminate|].
  repeat inv_bind H. inversion H; subst h; clear H.
  rename a into d0, a0 into leap, a1 into mode, a11 into flags, E0 into Rleap, E1 into Rmode, E2 into Rstratum,
    E3 into Rpoll, E4 into Rprec, E5 into Rrdel, E6 into Rrdisp, E7 into Rd12, E8 into Rts, E9 into Rera,
    E10 into Rfb, E11 into Rflags, E12 into Rsc, E13 into Rcc, E14 into Rt3, E15 into Rt4.
  cbn [v_leap v_mode].
  unfold v5_mode_from_bits in Rmode. destruct (_ || _) eqn:Em in Rmode; [|discriminate]. inversion Rmode; subst mode; clear Rmode.
  destruct (leap_norm _ _ flags Rleap) as (HL & l' & Hl1 & Hl2).
  set (L := leap_to_bits (fix_leap flags leap)) in *.
  set (b0 := L * 64 + HDR5_VERSION * 8 + d0 mod 8).
  assert (d0 mod 8 = 3 \/ d0 mod 8 = 4) as Hmode by lia.
  assert ((b0 / 8) mod 8 = 5 /\ (b0 / 64) mod 4 = L /\ b0 mod 8 = d0 mod 8) as (Hv5 & HbL & Hbm)
    by (unfold b0, HDR5_VERSION; clear - HL Hmode; lia).
  unfold header_deserialize.
  assert (forall s, idx ([b0] ++ btake 47 (bdrop 1 data) ++ X) 0 s = Ok b0) as Hi0 by reflexivity.
  rewrite Hi0. cbn [res_bind]. rewrite Hv5. cbn [Z.eqb Pos.eqb].
  unfold hdr5_deserialize, HDR5_WIRE_LENGTH, field.
  replace (blen ([b0] ++ btake 47 (bdrop 1 data) ++ X) <? 48) with false
    by (rewrite !blen_app, Hb47; change (blen [b0]) with 1; clear - HX; lia).
  rewrite Hi0. cbn [res_bind]. rewrite Hv5. cbn [Z.eqb negb Pos.eqb]. rewrite HbL, Hl1. cbn [res_bind].
  rewrite Hbm. unfold v5_mode_from_bits. rewrite Em. cbn [res_bind].
  rewrite !Hi, !Hr by (clear; lia).
  unfold field in Rrdel, Rrdisp, Rsc, Rcc, Rt3, Rt4.
  rewrite Rstratum, Rpoll, Rprec. cbn [res_bind]. rewrite Rrdel, Rrdisp. cbn [res_bind]. rewrite Rd12. cbn [res_bind].
  rewrite Rts. cbn [res_bind]. rewrite Rera, Rfb. cbn [res_bind]. rewrite Rflags. cbn [res_bind].
  rewrite Rsc, Rcc, Rt3, Rt4. cbn [res_bind]. rewrite Hl2. reflexivity.
Qed.

Lemma header_reparse : forall data hd, header_deserialize data = Ok hd ->
  blen (header_wire data hd) = 48 /\ forall X, header_deserialize (header_wire data hd ++ X) = Ok hd.
Proof.
  intros data hd H. pose proof (header_deserialize_inv _ _ H) as (H48 & _ & Hh).
  destruct hd as [h|h|h]; cbn [header_wire].
  1, 2: split; [apply blen_btake; lia|]; intros X; rewrite (header_deserialize_agree _ data);
    [exact H|apply btake_prefix; lia|rewrite blen_app, blen_btake by lia; pose proof (blen_nonneg X); lia|exact H48].
  split; [|intros X; apply hdr5_reparse; assumption].
  unfold hdr5_wire. rewrite blen_app, blen_btake by (rewrite blen_bdrop; lia). reflexivity.
Qed.

Lemma with_fields_wire : forall dec hd v5 hw fs mw m, blen hw = 48 -> Forall (field_ok v5) fs ->
  blen mw <= ef_cutoff v5 -> opt_mac mw = Ok m ->
  with_fields dec NoKeys (hw ++ fields_wire v5 fs ++ mw) hd 48 v5
  = Ok (Accept (mkPacket hd (mkEfdata [] [] (norm_fields v5 fs)) m) None).
Proof.
  intros dec hd v5 hw fs mw m Hhw Hok Hcut Hm.
  pose proof (blen_nonneg mw). pose proof (blen_nonneg (fields_wire v5 fs)).
  destruct (fields_wire_len v5 fs Hok) as (Hn & _).
  rewrite with_fields_eq by (rewrite !blen_app; lia).
  replace (bdrop 48 (hw ++ fields_wire v5 fs ++ mw)) with (fields_wire v5 fs ++ mw) by (rewrite <- Hhw, bdrop_app; reflexivity).
  rewrite (loop_print dec _ 48 v5 mw Hcut fs Hok [] _ st_init)
    by (reflexivity || (unfold blen in *; rewrite app_length; lia)).
  cbn [res_bind]. unfold finish, final_state, st_init. cbn [l_size l_ef l_valid l_cookie efdata_empty authenticated encrypted untrusted app].
  change (blen []) with 0.
  replace (bdrop (48 + (0 + blen (fields_wire v5 fs))) (hw ++ fields_wire v5 fs ++ mw)) with mw.
  2:{ rewrite app_assoc. replace (48 + (0 + blen (fields_wire v5 fs))) with (blen (hw ++ fields_wire v5 fs)) by (rewrite blen_app; lia).
      symmetry; apply bdrop_app. }
  rewrite Hm. reflexivity.
Qed.

Definition norm (p : packet) : packet :=
  mkPacket (p_header p) (mkEfdata [] [] (norm_fields (is_v5 (p_header p)) (untrusted (p_ef p)))) (p_mac p).

Lemma norm_fields_v5 : forall fs, Forall (field_ok true) fs -> norm_fields true fs = fs.
Proof.
  induction fs as [|f fs IH]; intros H; [reflexivity|]. inversion H; subst.
  cbn [norm_fields]. rewrite IH by assumption. f_equal.
  destruct f; cbn [norm_field msgb]; try reflexivity.
  cbn [field_ok] in H2. rewrite blen_zeros by lia. reflexivity.
Qed.

Lemma deserialize_wire : forall dec p hw, plain p -> blen hw = 48 ->
  (forall X, header_deserialize (hw ++ X) = Ok (p_header p)) ->
  deserialize dec NoKeys (wire hw p) = Ok (Accept (norm p) None).
Proof.
  intros dec p hw (Ha & He & Hf & H3 & Hm & Hc & Hg) Hhw Hre. unfold wire, norm.
  rewrite deserialize_eq by (destruct hw; [discriminate Hhw|discriminate]).
  rewrite Hre. cbn [res_bind].
  destruct (p_header p) eqn:Eh; cbn [is_v5 header_version after_header] in *.
  - rewrite H3 by reflexivity. cbn [fields_wire norm_fields app]. rewrite <- Hhw, bdrop_app, Hm. reflexivity.
  - apply with_fields_wire; assumption.
  - rewrite (with_fields_wire dec (HV5 h) true hw _ _ (p_mac p)) by assumption. cbn [res_bind]. apply draft_gate_accept.
    unfold draft_id. cbn [p_ef untrusted authenticated]. rewrite norm_fields_v5, app_nil_r by assumption.
    apply Hg. reflexivity.
Qed.

Lemma plain_norm : forall p hw, plain p -> plain (norm p) /\ wire hw (norm p) = wire hw p.
Proof.
  intros p hw (Ha & He & Hf & H3 & Hm & Hc & Hg). destruct (norm_fields_ok _ _ Hf) as (Hnok & Hnw).
  unfold plain, wire, norm. cbn [p_header p_ef p_mac authenticated encrypted untrusted]. rewrite Hnw.
  split; [|reflexivity]. repeat split; try assumption.
  - intros H. rewrite (H3 H). reflexivity.
  - intros Hv. rewrite Hv in *. rewrite norm_fields_v5 by assumption. apply Hg. reflexivity.
Qed.
