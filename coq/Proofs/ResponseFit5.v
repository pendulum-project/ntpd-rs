(* C17, the size before padding: every field of an answer is paid for by a distinct field of the request that is
   at least as long; one inequality for plain answers and one for NTS answers. *)
From V Require Import Model.Response Proofs.Response Proofs.ResponseFit Gen.ConstResponse.

Lemma esz_list_app_const minf m l1 l2 :
  (forall b, minf b = m) -> esz_list minf (l1 ++ l2) = esz_list minf l1 + esz_list minf l2.
Proof.
  intros H. induction l1 as [|f r IH]; [reflexivity|].
  change ((f :: r) ++ l2) with (f :: (r ++ l2)). cbn [esz_list]. rewrite !H, IH. lia.
Qed.

Lemma esz_draft m : m = 4 \/ m = 16 -> esz m draft_field = 28.
Proof. intros [->| ->]; reflexivity. Qed.

Definition is_the_draft (f : field) : bool :=
  match f with FDraft d => if list_eq_dec Z.eq_dec d draft_bytes then true else false | _ => false end.
Definition draft_bonus (l : list field) : Z := if has_draft l then 28 else 0.

Lemma has_draft_cons f r : has_draft (f :: r) = is_the_draft f || has_draft r.
Proof. reflexivity. Qed.

Lemma has_draft_app a b : has_draft (a ++ b) = has_draft a || has_draft b.
Proof. unfold has_draft. apply existsb_app. Qed.

Lemma is_the_draft_wire f : is_the_draft f = true -> fwire f = 28.
Proof.
  destruct f; try discriminate. unfold is_the_draft. destruct (list_eq_dec Z.eq_dec d draft_bytes); [|discriminate].
  subst d. reflexivity.
Qed.

(* per-field accounting for NTPv5 answers: echoed unique identifiers and reference-id responses,
   fresh cookies and the draft identification are each paid for by a distinct field of the request *)
Lemma v5_cost fresh minf m flt l :
  (forall b, minf b = m) ->
  forallb (field_ok true) l = true -> short_uid minf (echo_uid l) = false ->
  esz_list minf (echo_v5 flt l) + slot_wire fresh l + draft_bonus l <= fields_wire l.
Proof.
  intros HM. induction l as [|f r IH]; [intros _ _; cbn; lia|].
  cbn [forallb]. intros H HS. apply andb_prop in H. destruct H as [H1 H2].
  destruct (field_ok_fwire _ _ H1) as [P0 _].
  assert (DB: draft_bonus (f :: r) <= (if is_the_draft f then 28 else 0) + draft_bonus r).
  { unfold draft_bonus. rewrite has_draft_cons. destruct (is_the_draft f), (has_draft r); cbn; lia. }
  rewrite fields_wire_cons, slot_wire_cons.
  destruct f; cbn [echo_v5 big_slot is_the_draft] in *; try (specialize (IH H2 HS); lia).
  (* a cookie and a placeholder alike *)
  2, 3: specialize (IH H2 HS); unfold fwire in *; pose proof (next4_ge (4 + n)); destruct (fresh <=? n) eqn:E; lia.
  - unfold echo_uid in HS. cbn [filter is_uid] in HS. cbn [short_uid] in HS. apply orb_false_elim in HS. destruct HS as [S1 S2].
    specialize (IH H2 S2). cbn [esz_list]. rewrite HM in *. unfold esz, fwire in *.
    replace (len d + 4) with (4 + len d) by lia. lia.
  - specialize (IH H2 HS).
    destruct (list_eq_dec Z.eq_dec d draft_bytes) as [->|NE]; [|lia].
    change (fwire (FDraft draft_bytes)) with 28 in *. lia.
  - specialize (IH H2 HS). unfold field_ok in H1.
    destruct (refid_response flt plen off) as [x|] eqn:ER; [|lia].
    apply refid_response_spec in ER. destruct ER as [-> [R1 R2]].
    cbn [esz_list]. unfold esz, fwire in *.
    pose proof (len_firstn_le (Z.to_nat plen) (skipn (Z.to_nat off) flt)).
    pose proof (next4_mono (len (firstn (Z.to_nat plen) (skipn (Z.to_nat off) flt)) + 4) (4 + plen) ltac:(lia)). lia.
Qed.

Lemma echo_v5_nil_filter l : forallb (field_ok true) l = true -> echo_v5 [] l = echo_uid l.
Proof.
  induction l as [|f r IH]; [reflexivity|]. cbn [forallb]. intros H. apply andb_prop in H. destruct H as [H1 H2].
  specialize (IH H2). unfold echo_uid in *. destruct f; cbn [echo_v5 filter is_uid]; rewrite ?IH; try reflexivity.
  unfold field_ok in H1. unfold refid_response. change (len (@nil Z)) with 0.
  destruct ((off <=? 0) && (plen <=? 0 - off)) eqn:E; [lia|reflexivity].
Qed.

Lemma draft_le l : forallb (field_ok true) l = true -> has_draft l = true -> 28 <= fields_wire l.
Proof.
  induction l as [|f r IH]; [discriminate|]. cbn [forallb]. intros H HD. apply andb_prop in H. destruct H as [H1 H2].
  rewrite has_draft_cons in HD. rewrite fields_wire_cons. destruct (field_ok_fwire _ _ H1) as [P0 _].
  destruct (fields_wire_ok _ _ H2) as [R0 _].
  destruct (is_the_draft f) eqn:E.
  - rewrite (is_the_draft_wire f E). lia.
  - cbn [orb] in HD. specialize (IH H2 HD). lia.
Qed.

(* what an answer echoes from a list [l] of request fields costs no more than [l], up to the draft identification
   an NTPv5 answer appends (28 bytes); what [l] spends on its own draft identification is still to be claimed *)
Lemma echoed_cost fresh minf k st q l :
  q_version q = 4 \/ q_version q = 5 ->
  (q_version q = 5 -> exists m, (forall b, minf b = m) /\ (m = 4 \/ m = 16)) ->
  forallb (field_ok (q_version q =? 5)) l = true -> short_uid minf (echo_uid l) = false ->
  esz_list minf (echoed k st q l) + slot_wire fresh l + (if q_version q =? 5 then draft_bonus l else 0)
    <= fields_wire l + (if q_version q =? 5 then 28 else 0).
Proof.
  intros [V|V] HM FO HS; unfold echoed; rewrite V in *.
  - change (4 =? 5) with false in *. cbv iota. pose proof (uid_cost false fresh minf l FO HS). cbn. lia.
  - destruct (HM eq_refl) as (m & Hm & M). change (5 =? 5) with true in *. cbv iota.
    change (5 =? 3) with false. change (5 =? 4) with false. cbv iota.
    rewrite (esz_list_app_const minf m) by exact Hm. cbn [esz_list]. rewrite Hm, (esz_draft m M).
    destruct (is_time_kind k); [|rewrite <- (echo_v5_nil_filter _ FO)];
      match goal with |- context [echo_v5 ?flt l] => pose proof (v5_cost fresh minf m flt l Hm FO HS) end; lia.
Qed.

Lemma raw_plain tf k alg st q recv now mlen :
  wf_request q = true -> wf_env st recv now -> q_version q <> 3 -> is_nts_kind k = false ->
  known_class_C17 q k = false ->
  raw_size (built tf k alg st q recv now mlen) <= request_len q.
Proof.
  intros WF WE V3 HK HC. destruct (wf_request_facts q WF) as (HV & FU & FA & _ & FX & M0 & XM & _ & _ & H5 & _).
  unfold known_class_C17 in HC. rewrite HK in HC. apply orb_false_elim in HC. destruct HC as [HC1 HC2].
  assert (FO : forallb (field_ok (q_version q =? 5)) (q_untrusted q ++ q_auth q) = true)
    by (rewrite forallb_app, FU, FA; reflexivity).
  pose proof (echoed_cost 0 (min_untrusted (q_version q =? 5)) k st q _ ltac:(lia)
                ltac:(intros V; rewrite V; exists MIN_UNTRUSTED_V5; auto) FO HC1) as VC.
  (* an NTPv5 request that is answered in the clear carries the draft identification, unless its authenticator failed *)
  assert (DR : (if q_version q =? 5 then 28 else 0) <= (if q_version q =? 5 then draft_bonus (q_untrusted q ++ q_auth q) else 0)).
  { destruct (q_version q =? 5) eqn:E5; [|lia]. destruct (H5 ltac:(lia)) as (_ & HDR). unfold draft_bonus.
    destruct (q_decrypt_failed q); [|rewrite (HDR eq_refl); lia].
    cbn [andb] in HC2. destruct (has_draft _); [lia|discriminate]. }
  rewrite fields_wire_app in VC.
  pose proof (slot_wire_nonneg 0 (q_untrusted q ++ q_auth q) ltac:(lia)). destruct (auths_ok _ FX) as [X0 _].
  unfold raw_size. rewrite (built_header_len _ _ _ _ _ _ _ _ WE XM). unfold auth_present, built, sent_cookies.
  cbn [a_ver a_untrusted a_auth a_enc mk_answer]. rewrite HK. cbn [andb negb orb is_nil].
  unfold request_len. consts. lia.
Qed.

Lemma raw_nts tf k alg st q recv now mlen :
  wf_request q = true -> wf_env st recv now -> q_version q <> 3 -> is_nts_kind k = true ->
  q_cookie q = Some alg -> q_decrypt_failed q = false -> known_class_C17 q k = false ->
  raw_size (built tf k alg st q recv now mlen) <= request_len q.
Proof.
  intros WF WE V3 HK HCK HDF HC.
  destruct (wf_request_facts q WF) as (HV & FU & FA & FE & FX & M0 & XM & _ & _ & H5 & HN).
  destruct (HN HDF alg HCK) as (NL & SC).
  unfold known_class_C17 in HC. rewrite HK in HC. apply orb_false_elim in HC. destruct HC as [HC1 HC2].
  pose proof (auths_sum _ FX HC2) as AS. pose proof (cookie_len_cases alg) as FR.
  destruct (sent_cookies_cost tf k alg q) as (_ & n & N0 & EN & SL).
  pose proof (echoed_cost (cookie_len alg) min_auth k st q _ ltac:(lia)
                ltac:(intros _; exists MIN_AUTHENTICATED; auto) FA HC1) as VC.
  pose proof (slot_le _ (cookie_len alg) (q_enc q) FE) as SE.
  destruct (fields_wire_ok _ _ FU) as [U0 _]. destruct (fields_wire_ok _ _ FA) as [A0 _].
  destruct (fields_wire_ok _ _ FE) as [E0 _].
  (* the draft identification of an NTPv5 answer is paid for by the request's, wherever it stands *)
  assert (DR : (if q_version q =? 5 then 28 else 0)
               <= (if q_version q =? 5 then draft_bonus (q_auth q) else 0) + fields_wire (q_untrusted q)).
  { destruct (q_version q =? 5) eqn:E5; [|lia]. destruct (H5 ltac:(lia)) as (_ & HDR). specialize (HDR HDF).
    rewrite has_draft_app in HDR. unfold draft_bonus. destruct (has_draft (q_auth q)); [lia|].
    rewrite orb_false_r in HDR. pose proof (draft_le _ FU HDR). lia. }
  unfold raw_size. rewrite (built_header_len _ _ _ _ _ _ _ _ WE XM). unfold built.
  cbn [a_ver a_untrusted a_auth a_enc mk_answer]. rewrite HK, EN. cbn [esz_list].
  rewrite (next4_id ((cookie_len alg + 4) * n + 16)) by lia. unfold request_len. consts. change (next4 16) with 16.
  destruct (auth_present _); lia.
Qed.
