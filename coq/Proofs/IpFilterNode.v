(* C31, part 3: sorting, the split into nibble segments, and what the
   inset / outset bitmaps of one node mean. *)
From V Require Import Model.IpFilter Gen.ConstIpFilter Proofs.Common Proofs.IpFilterArith Proofs.IpFilterPrefix.
From Coq Require Import Sorting.Sorted Permutation.

Lemma insert_perm : forall x l, Permutation (insert_sorted x l) (x :: l).
Proof.
  induction l as [| y r IH]; simpl. reflexivity.
  destruct (entry_leb x y). reflexivity.
  rewrite IH. apply perm_swap.
Qed.

Lemma sort_perm : forall l, Permutation (sort_entries l) l.
Proof.
  induction l; simpl. reflexivity. rewrite insert_perm. constructor. exact IHl.
Qed.

Lemma insert_ssorted : forall x l, StronglySorted entry_le l -> StronglySorted entry_le (insert_sorted x l).
Proof.
  induction l as [| y r IH]; simpl; intros H.
  - constructor; constructor.
  - destruct (entry_leb x y) eqn:E.
    + apply entry_leb_le in E. destruct (StronglySorted_inv H) as [Hr Hy]. constructor. exact H.
      constructor. exact E. eapply Forall_impl; [| exact Hy]. intros z Hz. eapply entry_le_trans; eauto.
    + apply entry_le_total in E. destruct (StronglySorted_inv H) as [Hr Hy]. constructor. apply IH; assumption.
      eapply Permutation_Forall. symmetry. apply insert_perm. constructor; assumption.
Qed.

Lemma sort_ssorted : forall l, StronglySorted entry_le (sort_entries l).
Proof. induction l; simpl. constructor. apply insert_ssorted. exact IHl. Qed.

Definition key (e : entry) : Z := top_nibble (fst e).
(* [key] and [top_nibble] are used through key_range / top_nibble_div, never unfolded by cbn *)
Arguments key : simpl never.
Arguments top_nibble : simpl never.
Definition key_le (a b : entry) : Prop := key a <= key b.
Definition seg_of (data : list entry) (i : Z) : list entry := filter (fun e => key e =? i) data.

Lemma in_seg_of : forall data i e, In e (seg_of data i) <-> In e data /\ key e = i.
Proof. intros. unfold seg_of. rewrite filter_In, Z.eqb_eq. tauto. Qed.

Lemma entry_le_key : forall a b, in128 (fst a) -> in128 (fst b) -> entry_le a b -> key_le a b.
Proof.
  intros [v1 l1] [v2 l2] H1 H2 H. unfold key_le, key, entry_le in *. cbn [fst snd] in *.
  rewrite !top_nibble_div by auto. apply Z.div_le_mono. reflexivity. lia.
Qed.

Lemma sorted_keys : forall data, (forall e, In e data -> in128 (fst e)) ->
  StronglySorted entry_le data -> StronglySorted key_le data.
Proof.
  intros data Hw H. rewrite <- (map_id data). eapply ssorted_map; [| exact H].
  intros. apply entry_le_key; auto.
Qed.

(* a key-sorted list whose keys are all >= a starts with exactly its key-a elements *)
Lemma head_split : forall a rem, StronglySorted key_le rem -> (forall e, In e rem -> a <= key e) ->
  rem = filter (fun e => key e =? a) rem ++ filter (fun e => negb (key e =? a)) rem.
Proof.
  induction rem as [| x r IH]; intros Hs Hk. reflexivity.
  destruct (StronglySorted_inv Hs) as [Hr Hx]. cbn [filter]. destruct (Z.eqb_spec (key x) a); cbn [negb app].
  - f_equal. apply IH; auto. intros; apply Hk; right; assumption.
  - assert (Hgt : forall e, In e r -> (key e =? a) = false).
    { intros e He. rewrite Forall_forall in Hx. specialize (Hx e He). unfold key_le in Hx.
      specialize (Hk x (or_introl eq_refl)). lia. }
    rewrite filter_none by exact Hgt. cbn [app]. f_equal. symmetry. apply filter_all.
    intros e He. rewrite Hgt by exact He. reflexivity.
Qed.

Lemma split_segments_spec : forall n a data rem,
  StronglySorted key_le rem -> (forall e, In e rem -> Z.of_nat a <= key e) ->
  (forall i, Z.of_nat a <= i -> filter (fun e => key e =? i) rem = seg_of data i) ->
  split_segments (map (fun i => nib_count i data) (map Z.of_nat (seq a n))) rem =
  Ok (map (seg_of data) (map Z.of_nat (seq a n))).
Proof.
  induction n; intros a data rem Hs Hk Hf. reflexivity.
  simpl seq. simpl map. simpl split_segments.
  set (c := nib_count (Z.of_nat a) data).
  assert (Hc : c = length (filter (fun e => key e =? Z.of_nat a) rem)).
  { unfold c, nib_count. rewrite Hf by lia. reflexivity. }
  pose proof (head_split (Z.of_nat a) rem Hs Hk) as Hsplit.
  set (l1 := filter (fun e => key e =? Z.of_nat a) rem) in *.
  set (l2 := filter (fun e => negb (key e =? Z.of_nat a)) rem) in *.
  assert (Hlen : (length rem <? c)%nat = false).
  { apply Nat.ltb_ge. rewrite Hsplit, app_length. lia. }
  assert (HS : skipn c rem = l2 /\ firstn c rem = l1).
  { rewrite Hc. clear Hc Hlen. clearbody l1 l2. clear c. subst rem.
    split; [apply skipn_app_len | apply firstn_app_len]; reflexivity. }
  destruct HS as [HS1 HS2]. rewrite Hlen, HS1, HS2.
  rewrite (IHn (S a) data l2).
  - simpl. unfold l1. rewrite Hf by lia. reflexivity.
  - apply ssorted_filter. exact Hs.
  - intros e He. apply filter_In in He. destruct He as [He Hne]. specialize (Hk e He). lia.
  - intros i Hi. unfold l2. rewrite filter_filter_sub. apply Hf; lia. intros x Hx. lia.
Qed.

Lemma key_range : forall e, in128 (fst e) -> 0 <= key e < 16.
Proof. intros. apply top_nibble_range. assumption. Qed.

Lemma segments_spec : forall data, (forall e, In e data -> in128 (fst e)) -> StronglySorted entry_le data ->
  split_segments (counts data) data = Ok (map (seg_of data) (zseq 16)).
Proof.
  intros data Hw Hs. unfold counts, zseq. apply split_segments_spec.
  - apply sorted_keys; assumption.
  - intros e He. pose proof (key_range e (Hw e He)). lia.
  - reflexivity.
Qed.

Lemma seg_of_head_min : forall data i e rest, StronglySorted entry_le data ->
  seg_of data i = e :: rest -> forall e', In e' (seg_of data i) -> entry_le e e'.
Proof.
  intros data i e rest Hs He e' Hin. pose proof (ssorted_filter _ entry_le (fun e => key e =? i) data Hs) as H.
  fold (seg_of data i) in H. rewrite He in *. destruct (StronglySorted_inv H) as [_ Hmin]. destruct Hin as [<- | Hin].
  apply entry_le_refl. rewrite Forall_forall in Hmin. auto.
Qed.

(* what segment i contributes to bit n of the inset, resp. the outset *)
Definition in_contrib (i : Z) (seg : list entry) (n : Z) : bool :=
  match seg with
  | [] => false
  | (_, len) :: _ =>
    if len <=? NIBBLE_BITS then (i <=? n) && (n <? i + 2 ^ (NIBBLE_BITS - len))
    else (n =? i) && (2 ^ TOP_SHIFT <=? sweep i seg)
  end.
Definition out_contrib (i : Z) (seg : list entry) (n : Z) : bool :=
  match seg with [] => n =? i | _ => false end.

Lemma in_contrib_short : forall i (e : entry) rest n, snd e <= 4 ->
  in_contrib i (e :: rest) n = (i <=? n) && (n <? i + 2 ^ (4 - snd e)).
Proof.
  intros i [v len] rest n H. unfold in_contrib, NIBBLE_BITS. cbn [snd] in *.
  destruct (Z.leb_spec len 4); [reflexivity | lia].
Qed.

Lemma in_contrib_long : forall i (e : entry) rest n, 4 < snd e ->
  in_contrib i (e :: rest) n = (n =? i) && (2 ^ 124 <=? sweep i (e :: rest)).
Proof.
  intros i [v len] rest n H. unfold in_contrib, NIBBLE_BITS. cbn [snd] in *.
  destruct (Z.leb_spec len 4); [lia | reflexivity].
Qed.

Lemma run_bits : forall (m : nat) i ins n, 0 <= i -> i + Z.of_nat m <= 16 -> 0 <= n < 16 ->
  Z.testbit (fold_left (fun acc j => Z.lor acc (shl 16 1 (i + j))) (zseq m) ins) n =
  Z.testbit ins n || ((i <=? n) && (n <? i + Z.of_nat m)).
Proof.
  induction m; intros i ins n Hi Hm Hn.
  - simpl. destruct (Z.testbit ins n); simpl; lia.
  - rewrite zseq_S, fold_left_app. simpl fold_left at 1. rewrite Z.lor_spec, IHm by lia.
    rewrite shl16_one, Z.pow2_bits_eqb by lia. destruct (Z.testbit ins n); simpl; lia.
Qed.

(* the side conditions of seg_step on segment i: a nibble, and a run of nibbles that stays below 16 *)
Definition seg_side (i : Z) (seg : list entry) : Prop :=
  0 <= i < 16 /\ forall v len rest, seg = (v, len) :: rest -> len <= 4 -> 0 <= len /\ i + 2 ^ (4 - len) <= 16.

Lemma seg_step_bits : forall ins outs i seg n, 0 <= n < 16 -> seg_side i seg ->
  Z.testbit (fst (seg_step (ins, outs) (i, seg))) n = Z.testbit ins n || in_contrib i seg n /\
  Z.testbit (snd (seg_step (ins, outs) (i, seg))) n = Z.testbit outs n || out_contrib i seg n.
Proof.
  intros ins outs i seg n Hn [Hi Hside]. unfold seg_step, in_contrib, out_contrib, NIBBLE_BITS, TOP_SHIFT.
  destruct seg as [| [v len] rest]; cbn [fst snd].
  - rewrite Z.lor_spec, shl16_one, Z.pow2_bits_eqb by lia. rewrite orb_false_r. split. reflexivity.
    rewrite (Z.eqb_sym n i). reflexivity.
  - destruct (Z.leb_spec len 4) as [Hshort | Hlong]; cbn [fst snd].
    + destruct (Hside v len rest eq_refl Hshort) as [Hl0 Hb].
      assert (0 < 2 ^ (4 - len)) by (apply Z.pow_pos_nonneg; lia).
      rewrite run_bits by lia. rewrite Z2Nat.id by lia. rewrite orb_false_r. split; reflexivity.
    + match goal with |- context [2 ^ 124 <=? ?s] => destruct (Z.leb_spec (2 ^ 124) s) end; cbn [fst snd].
      * rewrite Z.lor_spec, shl16_one, Z.pow2_bits_eqb by lia. rewrite andb_true_r, orb_false_r, (Z.eqb_sym n i).
        split; reflexivity.
      * rewrite andb_false_r, !orb_false_r. split; reflexivity.
Qed.

Lemma fold_seg_bits : forall l ins outs n, 0 <= n < 16 ->
  (forall p, In p l -> seg_side (fst p) (snd p)) ->
  Z.testbit (fst (fold_left seg_step l (ins, outs))) n =
    Z.testbit ins n || existsb (fun p => in_contrib (fst p) (snd p) n) l /\
  Z.testbit (snd (fold_left seg_step l (ins, outs))) n =
    Z.testbit outs n || existsb (fun p => out_contrib (fst p) (snd p) n) l.
Proof.
  induction l as [| [i seg] l IH]; intros ins outs n Hn Hs.
  - simpl. rewrite !orb_false_r. split; reflexivity.
  - cbn [fold_left existsb fst snd].
    destruct (seg_step_bits ins outs i seg n Hn (Hs (i, seg) (or_introl eq_refl))) as [E1 E2].
    destruct (seg_step (ins, outs) (i, seg)) as [ins' outs']. cbn [fst snd] in E1, E2.
    destruct (IH ins' outs' n Hn (fun p H => Hs p (or_intror H))) as [F1 F2].
    rewrite F1, F2, E1, E2, !orb_assoc. split; reflexivity.
Qed.

Definition isegs_of (data : list entry) : list (Z * list entry) :=
  map (fun i => (i, seg_of data i)) (zseq 16).
Definition node_ins (data : list entry) : Z := fst (fold_left seg_step (isegs_of data) (0, 0)).
Definition node_outs0 (data : list entry) : Z := snd (fold_left seg_step (isegs_of data) (0, 0)).
Definition node_outs (data : list entry) : Z := Z.land (node_outs0 data) (not16 (node_ins data)).
Definition node_known (data : list entry) : Z := Z.lor (node_ins data) (node_outs data).

Section NodeSem.
  Variable data : list entry.
  Hypothesis Hwf : forall e, In e data -> wf_entry e.
  Hypothesis Hsorted : StronglySorted entry_le data.

  Lemma seg_wf : forall i e, In e (seg_of data i) -> wf_entry e /\ key e = i.
  Proof. intros i e H. apply in_seg_of in H. destruct H. split; auto. Qed.

  Lemma seg_head : forall i e rest, seg_of data i = e :: rest -> wf_entry e /\ key e = i.
  Proof. intros i e rest E. apply seg_wf. rewrite E. left. reflexivity. Qed.

  (* a segment that holds a prefix of at most 4 bits starts with one at most as long *)
  Lemma seg_head_short : forall i e rest e', seg_of data i = e :: rest -> In e' (seg_of data i) ->
    snd e' <= 4 -> snd e <= snd e'.
  Proof.
    intros i e rest e' E Hin Hs. pose proof (seg_of_head_min data i e rest Hsorted E e' Hin) as Hle.
    destruct (seg_head i e rest E) as [W K]. destruct (seg_wf i e' Hin) as [W' K'].
    destruct (short_prefix_run e' W' Hs) as [Hv' _]. pose proof (nibble_lower (fst e) (proj1 W)) as Hlow.
    unfold key in K, K'. rewrite K in Hlow. rewrite K' in Hv'. unfold entry_le in Hle. lia.
  Qed.

  Lemma isegs_side : forall p, In p (isegs_of data) -> seg_side (fst p) (snd p).
  Proof.
    intros p Hp. unfold isegs_of in Hp. apply in_map_iff in Hp. destruct Hp as (i & <- & Hi).
    apply in_zseq in Hi. cbn [fst snd]. split. lia.
    intros v len rest E Hl. destruct (seg_head i _ _ E) as [W K].
    destruct (short_prefix_run (v, len) W Hl) as [_ Hb]. destruct W as (_ & Hl0 & _).
    unfold key in K. cbn [fst snd] in *. rewrite K in Hb. lia.
  Qed.

  Lemma ins_bit : forall n, 0 <= n < 16 ->
    Z.testbit (node_ins data) n = existsb (fun i => in_contrib i (seg_of data i) n) (zseq 16).
  Proof.
    intros n Hn. unfold node_ins. destruct (fold_seg_bits (isegs_of data) 0 0 n Hn isegs_side) as [E _].
    rewrite E, Z.bits_0, orb_false_l. clear E. unfold isegs_of. rewrite existsb_map. reflexivity.
  Qed.

  Lemma outs0_bit : forall n, 0 <= n < 16 ->
    Z.testbit (node_outs0 data) n = match seg_of data n with [] => true | _ => false end.
  Proof.
    intros n Hn. unfold node_outs0. destruct (fold_seg_bits (isegs_of data) 0 0 n Hn isegs_side) as [_ E].
    rewrite E, Z.bits_0, orb_false_l. clear E. unfold isegs_of. rewrite existsb_map. cbn [fst snd].
    destruct (seg_of data n) eqn:S.
    - apply existsb_exists. exists n. split. apply in_zseq. lia. unfold out_contrib. rewrite S. apply Z.eqb_refl.
    - destruct (existsb _ _) eqn:X; auto. apply existsb_exists in X. destruct X as (i & _ & Hc).
      unfold out_contrib in Hc. destruct (seg_of data i) eqn:S'; try discriminate.
      apply Z.eqb_eq in Hc. subst. congruence.
  Qed.

  Lemma outs_bit : forall n, 0 <= n < 16 ->
    Z.testbit (node_outs data) n = Z.testbit (node_outs0 data) n && negb (Z.testbit (node_ins data) n).
  Proof. intros. unfold node_outs. rewrite Z.land_spec, not16_spec by lia. reflexivity. Qed.

  Lemma known_bit : forall n, 0 <= n < 16 ->
    Z.testbit (node_known data) n = Z.testbit (node_ins data) n || Z.testbit (node_outs data) n.
  Proof. intros. unfold node_known. apply Z.lor_spec. Qed.

  (* an undecided nibble has a segment, and all its prefixes are longer than 4 bits: a shorter one
     would come first and put the nibble into the inset *)
  Lemma undecided_seg : forall n, 0 <= n < 16 -> Z.testbit (node_known data) n = false ->
    seg_of data n <> [] /\ forall e, In e (seg_of data n) -> 4 < snd e.
  Proof.
    intros n Hn Hk. rewrite known_bit, outs_bit, outs0_bit in Hk by exact Hn.
    apply orb_false_iff in Hk. destruct Hk as [Hi Ho]. rewrite Hi, andb_true_r in Ho.
    destruct (seg_of data n) as [| e rest] eqn:E; [discriminate |]. split. discriminate.
    rewrite <- E. intros e' Hin. destruct (Z.lt_ge_cases 4 (snd e')) as [| Hs]; [assumption | exfalso].
    pose proof (seg_head_short n e rest e' E Hin Hs) as Hle. destruct (seg_head n e rest E) as [(_ & Hl0 & _) _].
    rewrite ins_bit in Hi by exact Hn. apply not_true_iff_false in Hi. apply Hi, existsb_exists. exists n.
    split. apply in_zseq; lia. rewrite E. destruct e as [v len]. cbn [snd] in *.
    rewrite in_contrib_short by (cbn [snd]; lia). cbn [snd]. assert (0 < 2 ^ (4 - len)) by (apply Z.pow_pos_nonneg; lia). lia.
  Qed.

  (* a short prefix that contains [a] marks a's nibble in the inset *)
  Lemma short_hit : forall e' a, In e' data -> snd e' <= 4 -> in128 a -> econtains a e' = true ->
    Z.testbit (node_ins data) (top_nibble a) = true.
  Proof.
    intros e' a Hin Hs Ha Hc. pose proof (top_nibble_range a Ha) as Hn.
    pose proof (Hwf e' Hin) as W'. pose proof (key_range e' (proj1 W')) as Hj.
    rewrite ins_bit by lia. apply existsb_exists. exists (key e'). split. apply in_zseq. lia.
    assert (Hin' : In e' (seg_of data (key e'))) by (apply in_seg_of; auto).
    destruct (seg_of data (key e')) as [| [v len] rest] eqn:E. destruct Hin'. rewrite <- E in Hin'.
    pose proof (seg_head_short _ _ _ e' E Hin' Hs) as Hlen. cbn [snd] in Hlen.
    rewrite short_prefix_contains in Hc by assumption. fold (key e') in Hc.
    rewrite in_contrib_short by (cbn [snd]; lia). cbn [snd].
    assert (2 ^ (4 - snd e') <= 2 ^ (4 - len)) by (apply Z.pow_le_mono_r; lia).
    lia.
  Qed.

  (* (a) a nibble in the inset: every address below it is listed *)
  Lemma ins_sound : forall a, in128 a -> Z.testbit (node_ins data) (top_nibble a) = true ->
    existsb (econtains a) data = true.
  Proof.
    intros a Ha Hb. pose proof (top_nibble_range a Ha) as Hn. rewrite ins_bit in Hb by lia.
    apply existsb_exists in Hb. destruct Hb as (i & Hi & Hc). apply in_zseq in Hi.
    destruct (seg_of data i) as [| [v len] rest] eqn:E; [discriminate |].
    destruct (seg_head _ _ _ E) as [W K]. apply existsb_exists.
    destruct (Z.le_gt_cases len 4); [rewrite in_contrib_short in Hc by assumption | rewrite in_contrib_long in Hc by (cbn [snd]; lia)];
      cbn [snd] in Hc.
    - exists (v, len). split. apply (in_seg_of data i). rewrite E. left. reflexivity.
      rewrite short_prefix_contains by assumption. fold (key (v, len)). rewrite K. exact Hc.
    - apply andb_prop in Hc. destruct Hc as [Hc1 Hc2]. apply Z.eqb_eq in Hc1. apply Z.leb_le in Hc2.
      rewrite <- E in Hc2. destruct (sweep_sound i (seg_of data i) a ltac:(lia) Ha ltac:(lia)) as (e & He & Hce).
      + intros e He. destruct (seg_wf _ _ He). split; auto. split; auto.
        destruct (Z.lt_ge_cases 4 (snd e)) as [| Hs]; [assumption |].
        pose proof (seg_head_short _ _ _ e E He Hs). cbn [snd] in *. lia.
      + exact Hc2.
      + exists e. split; auto. apply in_seg_of in He. tauto.
  Qed.

  (* prefixes longer than 4 bits that contain [a] are in a's segment *)
  Lemma long_hit : forall e' a, In e' data -> 4 < snd e' -> in128 a -> econtains a e' = true ->
    In e' (seg_of data (top_nibble a)).
  Proof.
    intros e' a Hin Hl Ha Hc. rewrite long_prefix_contains in Hc by auto.
    apply andb_prop in Hc. destruct Hc as [Hn _]. apply Z.eqb_eq in Hn.
    apply in_seg_of. split; auto.
  Qed.

  (* (b) a nibble in the outset: no address below it is listed *)
  Lemma outs_sound : forall a, in128 a -> Z.testbit (node_outs data) (top_nibble a) = true ->
    existsb (econtains a) data = false.
  Proof.
    intros a Ha Hb. pose proof (top_nibble_range a Ha) as Hn. rewrite outs_bit, outs0_bit in Hb by lia.
    apply andb_prop in Hb. destruct Hb as [Hempty Hni].
    destruct (existsb (econtains a) data) eqn:X; auto. exfalso.
    apply existsb_exists in X. destruct X as (e' & Hin & Hc).
    destruct (Z.lt_ge_cases 4 (snd e')).
    - pose proof (long_hit e' a Hin H Ha Hc) as Hs. destruct (seg_of data (top_nibble a)). destruct Hs. discriminate.
    - rewrite (short_hit e' a Hin ltac:(lia) Ha Hc) in Hni. discriminate.
  Qed.

  (* (c) an undecided nibble: the decision is that of the shifted segment *)
  Lemma undecided : forall a, in128 a -> Z.testbit (node_known data) (top_nibble a) = false ->
    (forall e, In e (seg_of data (top_nibble a)) -> 4 < snd e) /\
    existsb (econtains a) data =
    existsb (econtains (shl 128 a 4)) (map shift_entry (seg_of data (top_nibble a))).
  Proof.
    intros a Ha Hb. pose proof (top_nibble_range a Ha) as Hn. set (n := top_nibble a) in *.
    destruct (undecided_seg n Hn Hb) as [_ Hall]. split. exact Hall.
    rewrite known_bit in Hb by exact Hn. apply orb_false_iff in Hb. destruct Hb as [Hi _].
    assert (Hstep : forall e, In e (seg_of data n) -> econtains a e = econtains (shl 128 a 4) (shift_entry e)).
    { intros e He. destruct (seg_wf _ _ He) as [W K]. rewrite (long_prefix_contains e a) by auto.
      fold (key e) n. rewrite K, Z.eqb_refl. reflexivity. }
    rewrite existsb_map. apply eq_iff_eq_true. rewrite !existsb_exists. split; intros (e & Hin & Hc); exists e.
    - assert (He : In e (seg_of data n)).
      { destruct (Z.lt_ge_cases 4 (snd e)). apply long_hit; auto.
        pose proof (short_hit e a Hin ltac:(lia) Ha Hc) as Hh. fold n in Hh. congruence. }
      split. exact He. rewrite <- Hstep; assumption.
    - split. apply in_seg_of in Hin. tauto. rewrite Hstep; assumption.
  Qed.

  (* the shifted segment is again a well-formed sorted prefix list, 4 bits shorter *)
  Lemma shifted_ok : forall n, (forall e, In e (seg_of data n) -> 4 < snd e) ->
    (forall e, In e (map shift_entry (seg_of data n)) -> wf_entry e) /\
    StronglySorted entry_le (map shift_entry (seg_of data n)) /\
    (forall e, In e (map shift_entry (seg_of data n)) -> exists e0, In e0 (seg_of data n) /\ snd e = snd e0 - 4).
  Proof.
    intros n Hall. split; [| split].
    - intros e He. apply in_map_iff in He. destruct He as (e0 & <- & He0). destruct (seg_wf _ _ He0) as [W _].
      apply shift_entry_wf; auto.
    - eapply ssorted_map; [| apply ssorted_filter; exact Hsorted].
      intros x y Hx Hy Hle. destruct (seg_wf _ _ Hx) as [(Hvx & Hlx & _) Kx]. destruct (seg_wf _ _ Hy) as [(Hvy & Hly & _) Ky].
      apply shift_entry_le; auto. split. apply Hall; auto. lia. split. apply Hall; auto. lia.
      unfold key in *. congruence.
    - intros e He. apply in_map_iff in He. destruct He as (e0 & <- & He0). exists e0. destruct (seg_wf _ _ He0) as [(_ & Hl & _) _].
      split. exact He0. rewrite shift_entry_eq. reflexivity. split. apply Hall; auto. lia.
  Qed.
End NodeSem.
