(* The key file (C27): [load_store] (what is stored loads back), [load_proper_prefix]
   (a crash during the store is detected), [load_ok_inv] (whatever loads is a key set
   the daemon can hold) and, from these, what the provider starts with ([start_any]). *)
From V Require Import Model.KeyFile Proofs.Common Proofs.KeySet Gen.ConstKeyset.

(* nts_key_provider.rs opens the file with truncate(true) and mode(0o600) (regenerated from the source on every run) *)
Example provider_open_options : (PROVIDER_TRUNCATE, FILE_MODE_OCTAL_DIGITS) = (1, 600).
Proof. reflexivity. Qed.

Lemma key_len k : key_ok k -> length k = 64%nat.
Proof. intros [H _]. unfold lenZ in H. change FILE_KEY_LEN with 64 in H. lia. Qed.

Lemma chunks_concat ks : forall tail, Forall key_ok ks -> chunks (length ks) (concat ks ++ tail) = ks.
Proof.
  induction ks as [|k ks IH]; intros tail H; [reflexivity|].
  inversion H as [|? ? Hk Hks]; subst. cbn [length chunks concat]. change (Z.to_nat FILE_KEY_LEN) with 64%nat.
  rewrite <- app_assoc. rewrite firstn_app_len, skipn_app_len by (apply key_len; assumption).
  rewrite IH by assumption. reflexivity.
Qed.

Lemma concat_len ks : Forall key_ok ks -> lenZ (concat ks) = 64 * lenZ ks.
Proof.
  induction ks as [|k ks IH]; intros H; [reflexivity|].
  inversion H as [|? ? Hk Hks]; subst. cbn [concat]. rewrite lenZ_app, IH by assumption.
  pose proof (key_len k Hk). unfold lenZ in *. cbn [length]. lia.
Qed.

Lemma chunks_length n : forall b, length (chunks n b) = n.
Proof. induction n; intros b; cbn; [reflexivity|]. rewrite IHn. reflexivity. Qed.

Lemma chunks_key_ok n : forall b, bytes_ok b -> 64 * Z.of_nat n <= lenZ b -> Forall key_ok (chunks n b).
Proof.
  induction n; intros b Hb H; cbn [chunks]; constructor.
  - split; [|apply Forall_firstn, Hb].
    unfold lenZ in *. rewrite firstn_length. change (Z.to_nat FILE_KEY_LEN) with 64%nat. change FILE_KEY_LEN with 64. lia.
  - apply IHn; [apply Forall_skipn, Hb|].
    unfold lenZ in *. rewrite skipn_length. change (Z.to_nat FILE_KEY_LEN) with 64%nat. lia.
Qed.

(* [load] on a file image given by its five fields: each is read at its offset
   behind the ones before it *)
Lemma load_fields (T O P L R : bytes) :
  length T = 8%nat -> length O = 4%nat -> length P = 4%nat -> length L = 4%nat ->
  load (T ++ O ++ P ++ L ++ R) =
    if negb (time_representable (be_dec T)) then Err err_other else
    if be_dec P >=? be_dec L then Err err_other else
    if lenZ R <? be_dec L * FILE_KEY_LEN then Err err_eof else
    Ok ({| keys := chunks (Z.to_nat (be_dec L)) R; id_offset := be_dec O; primary := be_dec P |}, be_dec T).
Proof.
  intros HT HO HP HL. unfold load.
  replace (lenZ (T ++ O ++ P ++ L ++ R) <? FILE_HEADER_LEN) with false
    by (rewrite !lenZ_app; change FILE_HEADER_LEN with 20; pose proof (lenZ_nonneg R); unfold lenZ in *; lia).
  change (Z.to_nat FILE_HEADER_LEN) with (8 + (4 + (4 + 4)))%nat.
  (* 16 first: the numeral 16 contains the numeral 12 *)
  change 16%nat with (8 + (4 + 4))%nat. change 12%nat with (8 + 4)%nat.
  rewrite !skipn_add, !(skipn_app_len T _ 8 HT), !(skipn_app_len O _ 4 HO), !(skipn_app_len P _ 4 HP),
    (skipn_app_len L _ 4 HL), !firstn_app_len by assumption.
  reflexivity.
Qed.

Lemma file_split (b : bytes) :
  20 <= lenZ b ->
  exists T O P L R, b = T ++ O ++ P ++ L ++ R /\ length T = 8%nat /\ length O = 4%nat /\ length P = 4%nat /\ length L = 4%nat.
Proof.
  unfold lenZ. intros H.
  destruct (split_at 8 b) as (T & b1 & -> & HT); [lia|]. rewrite app_length in H.
  destruct (split_at 4 b1) as (O & b2 & -> & HO); [lia|]. rewrite app_length in H.
  destruct (split_at 4 b2) as (P & b3 & -> & HP); [lia|]. rewrite app_length in H.
  destruct (split_at 4 b3) as (L & R & -> & HL); [lia|]. eauto 12.
Qed.

Lemma be_dec_enc_u32 z : 0 <= z < 2 ^ 32 -> be_dec (be_enc 4 z) = z.
Proof. intros H. rewrite be_dec_enc. change (256 ^ Z.of_nat 4) with (2 ^ 32). apply Z.mod_small. assumption. Qed.

(* a stored key set loads back identically, whatever follows it in the file *)
Theorem load_store ks t tail :
  FileOk ks -> 0 <= t <= i64_max ->
  load (store ks t ++ tail) = Ok (ks, t).
Proof.
  intros (Hok & Hkeys & Hlen) Ht. destruct Hok as (Hp & Ho & _).
  unfold store. rewrite <- !app_assoc. rewrite load_fields by apply be_enc_length.
  rewrite be_dec_enc. change (256 ^ Z.of_nat 8) with (2 ^ 64).
  assert (Ht' : t mod 2 ^ 64 = t).
  { apply Z.mod_small. unfold i64_max in Ht. change (2 ^ 63 - 1) with 9223372036854775807 in Ht.
    change (2 ^ 64) with 18446744073709551616. lia. }
  rewrite Ht'. pose proof (lenZ_nonneg (keys ks)) as Hn.
  rewrite (wrap_small 32 (lenZ (keys ks))) by lia.
  rewrite !be_dec_enc_u32 by lia.
  unfold time_representable. replace (t <=? i64_max) with true by lia.
  cbn [negb]. replace (primary ks >=? lenZ (keys ks)) with false by lia.
  rewrite lenZ_app, concat_len by assumption. change FILE_KEY_LEN with 64.
  replace (64 * lenZ (keys ks) + lenZ tail <? lenZ (keys ks) * 64) with false
    by (pose proof (lenZ_nonneg tail); lia).
  unfold lenZ at 1. rewrite Nat2Z.id, chunks_concat by assumption.
  destruct ks; reflexivity.
Qed.

(* a crash during [store] leaves a proper prefix of the image, which [load] rejects *)
Theorem load_proper_prefix ks t p :
  FileOk ks -> proper_prefix p (store ks t) -> exists e, load p = Err e.
Proof.
  intros (Hok & Hkeys & Hlen) (s & Hs & Hp). destruct Hok as (Hpr & Ho & _).
  assert (Hsl : 1 <= lenZ s) by (destruct s; [congruence|unfold lenZ; cbn [length]; lia]).
  destruct (lenZ p <? 20) eqn:E.
  { unfold load. change FILE_HEADER_LEN with 20. rewrite E. eauto. }
  (* p is the whole header and a proper prefix of the keys *)
  unfold store in Hp. rewrite !app_assoc in Hp. symmetry in Hp.
  destruct (prefix_split _ _ _ _ Hp) as (R & -> & HR).
  { rewrite !app_length, !be_enc_length. unfold lenZ in E. lia. }
  rewrite <- !app_assoc, load_fields by apply be_enc_length.
  destruct (negb (time_representable _)); [eauto|].
  pose proof (lenZ_nonneg (keys ks)) as Hn.
  rewrite (wrap_small 32 (lenZ (keys ks))), !be_dec_enc_u32 by lia.
  destruct (primary ks >=? lenZ (keys ks)); [eauto|].
  apply (f_equal lenZ) in HR. rewrite lenZ_app, concat_len in HR by assumption.
  change FILE_KEY_LEN with 64. replace (lenZ R <? lenZ (keys ks) * 64) with true by lia.
  eauto.
Qed.

Lemma load_total b : (exists e, load b = Err e) \/ (exists r, load b = Ok r).
Proof.
  unfold load. repeat match goal with |- context [if ?x then _ else _] => destruct x end; eauto.
Qed.

(* whatever [load] accepts is a key set the daemon can hold, with a representable time stamp *)
Theorem load_ok_inv b ks t :
  bytes_ok b -> load b = Ok (ks, t) -> FileOk ks /\ 0 <= t <= i64_max.
Proof.
  intros Hb. destruct (lenZ b <? 20) eqn:E.
  { unfold load. change FILE_HEADER_LEN with 20. rewrite E. discriminate. }
  destruct (file_split b) as (T & O & P & L & R & -> & HT & HO & HP & HL); [lia|].
  rewrite load_fields by assumption.
  apply Forall_app in Hb. destruct Hb as [HbT Hb]. apply Forall_app in Hb. destruct Hb as [HbO Hb].
  apply Forall_app in Hb. destruct Hb as [HbP Hb]. apply Forall_app in Hb. destruct Hb as [HbL HbR].
  pose proof (be_dec_range T 8 HbT HT) as RT. pose proof (be_dec_range O 4 HbO HO) as RO.
  pose proof (be_dec_range P 4 HbP HP) as RP. pose proof (be_dec_range L 4 HbL HL) as RL.
  change (256 ^ Z.of_nat 4) with 4294967296 in *. change (256 ^ Z.of_nat 8) with 18446744073709551616 in *.
  unfold time_representable. destruct (be_dec T <=? i64_max) eqn:Et; [|discriminate]. cbn [negb].
  destruct (be_dec P >=? be_dec L) eqn:Ep; [discriminate|].
  change FILE_KEY_LEN with 64. destruct (lenZ R <? be_dec L * 64) eqn:Er; [discriminate|].
  intros H. apply Ok_inj in H. injection H as <- <-.
  assert (Hlen : lenZ (chunks (Z.to_nat (be_dec L)) R) = be_dec L).
  { unfold lenZ. rewrite chunks_length. lia. }
  unfold FileOk, KeysOk. cbn [keys id_offset primary]. rewrite Hlen. change (2 ^ 32) with 4294967296.
  repeat split; try lia.
  apply chunks_key_ok; [exact HbR|lia].
Qed.

Lemma start_full ks t fresh now :
  FileOk ks -> 0 <= t <= i64_max -> start (Some (store ks t)) fresh now = Ok (ks, t).
Proof.
  intros H Ht. unfold start. rewrite <- (app_nil_r (store ks t)). rewrite load_store by assumption. reflexivity.
Qed.

Lemma start_proper_prefix ks t p fresh now :
  FileOk ks -> proper_prefix p (store ks t) -> start (Some p) fresh now = Ok (new_keyset fresh, now).
Proof.
  intros H Hp. unfold start. destruct (load_proper_prefix ks t p H Hp) as [e ->]. reflexivity.
Qed.

Lemma new_keyset_fileok fresh : key_ok fresh -> FileOk (new_keyset fresh).
Proof.
  intros H. split; [apply new_keyset_newest|]. split; [constructor; [assumption|constructor]|].
  unfold new_keyset, lenZ. cbn. lia.
Qed.

(* whatever the file holds, the daemon starts with a key set that is well formed *)
Theorem start_any file fresh now :
  (forall b, file = Some b -> bytes_ok b) -> key_ok fresh ->
  exists ks t, start file fresh now = Ok (ks, t) /\ FileOk ks.
Proof.
  intros Hb Hf. unfold start. destruct file as [b|].
  - destruct (load_total b) as [[e ->]|[[ks t] Hl]].
    + eexists _, _. split; [reflexivity|]. apply new_keyset_fileok. assumption.
    + rewrite Hl. exists ks, t. split; [reflexivity|].
      apply (load_ok_inv b ks t (Hb b eq_refl) Hl).
  - eexists _, _. split; [reflexivity|]. apply new_keyset_fileok. assumption.
Qed.

Lemma keysok_usable (enc : enc_t) (dec : dec_t) ks :
  aead_correct enc dec -> aead_tag16 enc -> KeysOk ks -> usable enc dec ks.
Proof. intros H1 H2 Hok c nonce Hwf Hn. apply (roundtrip enc dec H1 H2); assumption. Qed.
