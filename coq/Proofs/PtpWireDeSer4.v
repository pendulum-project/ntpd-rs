(* C41: the whole message, both directions of the round trip. *)
From V Require Import Model.PtpWire Proofs.Common Proofs.WireBytes Proofs.TlvSet Proofs.PtpWireMsg
     Proofs.PtpWireDeSer1 Proofs.PtpWireHeader Proofs.PtpWireBody.

Theorem msg_ser_de : forall h b set buf out pad,
  header_ok h -> body_ok b -> tlv_valid set ->
  msg_serialize (mkMsg h b set) buf = Ok out ->
  msg_deserialize (out ++ pad) = Ok (mkMsg h b set).
Proof.
  intros h b set buf out pad Hh Hb Hs H.
  apply msg_serialize_ok_iff in H. cbn [m_header m_body m_suffix] in H. destruct H as (_ & Htot & Hv & He & ->).
  set (mlen := Z.of_nat (34 + body_size b + length set)) in *.
  set (old := slice 34 (34 + body_size b) buf).
  assert (length (ser_header h (body_type b) mlen) = 34%nat) as LH
    by (apply ser_header_length; destruct Hh as (_ & _ & _ & _ & _ & (_ & L & _) & _); exact L).
  pose proof (ser_body_length b old Hb) as LB.
  rewrite <- !app_assoc.
  apply (msg_deserialize_ok_iff _ h (body_type b) mlen).
  { apply header_ser_de; auto using body_type_ok. unfold mlen. lia. }
  cbn [m_header m_body m_suffix]. rewrite (app_assoc (ser_body b old) set pad).
  rewrite (slice_mid _ (ser_body b old ++ set) pad 34 (Z.to_nat mlen))
    by (rewrite ?app_length, ?LB; try exact LH; unfold mlen; lia).
  rewrite !app_length, LH, LB. repeat split; try (unfold mlen; lia).
  - apply body_type_ok.
  - apply body_ser_de; assumption.
  - rewrite (skipn_app_len _ set _ LB). apply tlvset_de_ok_iff. auto.
Qed.

(* C41_ser_de: the TLV set is made by the builder from any list of TLVs (any type code the
   TlvType enumeration can yield, any value) in a backing buffer of any size *)
Lemma built_valid : forall cap ts set, Forall tlv_ok ts -> build_tlvs cap ts = Ok set -> tlv_valid set.
Proof.
  intros cap ts set Hok H. unfold build_tlvs in H. apply builder_add_all_inv in H.
  destruct H as (-> & Ev & Hl & _). cbn [app]. apply tlv_concat_valid; [|exact Ev].
  rewrite Forall_forall in *. intros t Hin. split; [apply (Hok t Hin)|apply (Hl t Hin)].
Qed.

Definition msg_de_ser_stmt (buf : bytes) (m : message) (n : nat) : Prop :=
  msg_serialize m (repeat 0 n) = Ok (normalise (firstn (message_length buf) buf))
  /\ header_ok (m_header m) /\ body_ok (m_body m) /\ tlv_valid (m_suffix m).

(* C41_de_ser.  The parsed prefix is header ++ body ++ suffix; [header_de_ser] and [body_de_ser] give
   the first two under the mask, and the mask leaves the suffix alone ([norm_tail]). *)
Theorem msg_de_ser : forall buf m n,
  bytes_ok buf -> msg_deserialize buf = Ok m -> (message_length buf <= n)%nat -> msg_de_ser_stmt buf m n.
Proof.
  intros buf m n Hb H Hn. destruct (de_header buf) as [[h ty] mlen] eqn:Eh.
  apply (msg_deserialize_ok_iff _ _ _ _ _ Eh) in H. destruct H as (L & Et & Hm & Hlen & Hh & Eb & Es).
  pose proof (msgtype_in _ Et) as Hin.
  destruct (header_de_ser buf h ty mlen Hb L Eh Hin) as (HS & Hok & Hver & Ety & Emlen & Rm).
  unfold msg_de_ser_stmt, normalise, message_length in *. rewrite <- Emlen in *.
  assert (byte 0 (firstn (Z.to_nat mlen) buf) = byte 0 buf) as ->
    by (destruct buf, (Z.to_nat mlen) eqn:E; try reflexivity; lia).
  rewrite <- Ety.
  replace (firstn (Z.to_nat mlen) buf) with (firstn 34 buf ++ slice 34 (Z.to_nat mlen) buf)
    by (unfold slice; rewrite <- firstn_add; f_equal; lia).
  set (content := slice 34 (Z.to_nat mlen) buf) in *.
  assert (length content = (Z.to_nat mlen - 34)%nat) as Lc by (apply slice_length; lia).
  pose proof (de_body_len _ _ _ Eb) as Lb.
  apply tlvset_de_ok_iff in Es. destruct Es as [Esf Hvalid].
  rewrite <- (firstn_skipn (type_size ty) content) in Eb |- *.
  destruct (body_de_ser ty _ _ _ (slice 34 (34 + type_size ty) (repeat 0 n)) Hin (fun i => zeros_byte i _ _ _)
              (Forall_firstn _ _ _ (slice_bytes 34 _ buf Hb)) (firstn_length_le _ Lb) Eb) as (SB & Benc & Bty & Bok).
  assert (body_size (m_body m) = type_size ty) as Ebs by (unfold body_size; rewrite Bty; reflexivity).
  rewrite Ebs in *. rewrite Hh. split; [|rewrite Esf; auto].
  apply msg_serialize_ok_iff. rewrite repeat_length, Ebs, Bty, Hh, Esf, skipn_length, Lc.
  replace (Z.of_nat (34 + type_size ty + (Z.to_nat mlen - 34 - type_size ty))) with mlen by lia.
  split; [lia|]. split; [lia|]. split; [exact Hver|]. split; [exact Benc|].
  rewrite !mapi_from_app, !firstn_length_le, Nat.add_0_l by lia. subst content. rewrite <- HS, <- SB. do 2 f_equal.
  apply mapi_from_id. intros j x Hj. apply norm_tail. lia.
Qed.

(* a byte string that the mask leaves as it is (C41_de_ser_literal puts this condition, written
   out, on the parsed prefix) *)
Definition reserved_clear (b : bytes) : Prop := normalise b = b.
