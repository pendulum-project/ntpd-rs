(* Lemmas about vote_leap (Model/Combine.v): what each outcome of the vote says about the selection,
   and that at most one indicator can have the majority. *)
From V Require Import Model.Combine Proofs.Common.
From Coq Require Import Permutation.

Lemma count_nonneg l sel : 0 <= count l sel.
Proof. induction sel as [|x r IH]; cbn [count]; [lia|]. destruct (leap_eqb x l); lia. Qed.

Lemma count_total sel :
  count NoWarning sel + count Leap61 sel + count Leap59 sel + count Unknown sel
  + count Unsynchronized sel = Z.of_nat (length sel).
Proof.
  induction sel as [|x r IH]; [reflexivity|].
  cbn [count length]. rewrite Nat2Z.inj_succ. destruct x; cbn [leap_eqb]; lia.
Qed.

Lemma existsb_unsync sel :
  existsb (leap_eqb Unsynchronized) sel = true <-> In Unsynchronized sel.
Proof. apply existsb_eqb_In. intros [] []; cbn [leap_eqb]; split; congruence. Qed.

Definition votable (L : leap) : Prop := L = NoWarning \/ L = Leap59 \/ L = Leap61.

(* the property's majority: strictly more than half of the selected sources
   whose leap status is known *)
Definition majority (L : leap) (sel : list leap) : Prop :=
  2 * count L sel > Z.of_nat (length sel) - count Unknown sel.

(* at most one indicator has the majority: the five counts add up to the length *)
Lemma majority_unique L1 L2 sel :
  votable L1 -> votable L2 -> majority L1 sel -> majority L2 sel -> L1 = L2.
Proof.
  unfold votable, majority. intros H1 H2 M1 M2.
  pose proof (count_total sel) as T.
  pose proof (count_nonneg NoWarning sel). pose proof (count_nonneg Leap61 sel).
  pose proof (count_nonneg Leap59 sel). pose proof (count_nonneg Unsynchronized sel).
  destruct H1 as [-> | [-> | ->]], H2 as [-> | [-> | ->]]; try reflexivity; exfalso; lia.
Qed.

(* one candidate test of the code, `votes * 2 > len - votes_unknown` *)
Lemma majority_test L sel :
  (count L sel * 2 >? Z.of_nat (length sel) - count Unknown sel) = true <-> majority L sel.
Proof. unfold majority. rewrite Z.gtb_lt. lia. Qed.

Lemma votable_In L : votable L <-> In L [NoWarning; Leap59; Leap61].
Proof. unfold votable. cbn [In]. intuition congruence. Qed.

(* the vote announces the first candidate, in the order of the code, that passes the test *)
Lemma vote_leap_find sel :
  vote_leap sel =
  if existsb (leap_eqb Unsynchronized) sel then Panic panic_unsynchronized_selected
  else Ok (find (fun L => count L sel * 2 >? Z.of_nat (length sel) - count Unknown sel)
                [NoWarning; Leap59; Leap61]).
Proof.
  unfold vote_leap. cbv zeta. cbn [find]. destruct (existsb _ sel); [reflexivity|].
  repeat (destruct (_ >? _); [reflexivity|]). reflexivity.
Qed.

(* what each outcome of the vote says about the selection; with majority_unique this determines
   the outcome *)
Lemma vote_leap_spec sel :
  match vote_leap sel with
  | Panic _ => In Unsynchronized sel
  | Err _ => False
  | Ok v => ~ In Unsynchronized sel /\
            match v with
            | Some L => votable L /\ majority L sel
            | None => forall L, votable L -> ~ majority L sel
            end
  end.
Proof.
  rewrite vote_leap_find. destruct (existsb _ sel) eqn:E; [apply existsb_unsync; exact E|].
  split; [intros Hin; apply existsb_unsync in Hin; congruence|].
  destruct (find _ _) as [L|] eqn:F.
  - apply find_some in F. destruct F as [HL M].
    split; [apply votable_In; exact HL|apply majority_test; exact M].
  - intros L HL M. apply votable_In in HL. apply majority_test in M.
    rewrite (find_none _ _ F L HL) in M. discriminate.
Qed.

Lemma vote_never_err sel e : vote_leap sel <> Err e.
Proof. rewrite vote_leap_find. destruct (existsb _ sel); discriminate. Qed.

Lemma count_perm l s1 s2 : Permutation s1 s2 -> count l s1 = count l s2.
Proof. induction 1; cbn [count]; lia. Qed.

Lemma vote_leap_perm s1 s2 : Permutation s1 s2 -> vote_leap s1 = vote_leap s2.
Proof.
  intros P. unfold vote_leap.
  rewrite (existsb_perm _ _ _ P), (Permutation_length P), !(count_perm _ _ _ P). reflexivity.
Qed.
