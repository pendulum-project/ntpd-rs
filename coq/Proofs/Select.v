(* Lemmas about the model of select (Model/Select.v).  The sorted bounds are a permutation of the
   voters' bounds in which every End stands behind its Start ([balanced]); along them the sweep keeps
   [SweepInv], whose last clause finds the peak at a Start, and the time of that Start lies in at
   least as many voters' intervals as the peak is high ([peak_bound]). *)
From V Require Import Model.Select Gen.ConstSelect Proofs.Common.
From Coq Require Import Sorting.Sorted Permutation.

(* the census of the modelled sites of select.rs, as the constants translator counts them: one
   assert_eq! and no other panic site, one `cur += 1` and one `cur -= 1`, the float expressions
   behind the keys (radius, offset -/+ radius), and the sort call *)
Module Census.
  Import Coq.Strings.String.
  Lemma select_census :
    SELECT_ASSERT_SITES = 1 /\ SELECT_OTHER_PANIC_SITES = 0 /\
    SELECT_CUR_INC = 1 /\ SELECT_CUR_DEC = 1 /\
    SELECT_RADIUS_EXPR = 2 /\ SELECT_LO_EXPR = 2 /\ SELECT_HI_EXPR = 2 /\
    SELECT_SORT = "sort_by(|a, b| a.0.total_cmp(&b.0))"%string.
  Proof. repeat split; reflexivity. Qed.
End Census.

Fixpoint countc (f : cand -> bool) (l : list cand) : Z :=
  match l with [] => 0 | c :: r => (if f c then 1 else 0) + countc f r end.

Lemma countc_length f l : countc f l = Z.of_nat (length (filter f l)).
Proof.
  induction l as [|x r IH]; [reflexivity|].
  cbn [countc filter]. destruct (f x); cbn [length]; rewrite ?Nat2Z.inj_succ; lia.
Qed.

Lemma countc_nonneg f l : 0 <= countc f l.
Proof. rewrite countc_length. lia. Qed.

Lemma countc_le_length f l : countc f l <= Z.of_nat (length l).
Proof.
  induction l as [|x r IH]; cbn [countc length]; [lia|].
  rewrite Nat2Z.inj_succ. destruct (f x); lia.
Qed.

Section Sum.
Context {A : Type}.

Fixpoint sumZ (w : A -> Z) (l : list A) : Z :=
  match l with [] => 0 | x :: r => w x + sumZ w r end.

Lemma sumZ_app w l1 l2 : sumZ w (l1 ++ l2) = sumZ w l1 + sumZ w l2.
Proof. induction l1 as [|x r IH]; cbn [sumZ app]; lia. Qed.

Lemma sumZ_perm w l1 l2 : Permutation l1 l2 -> sumZ w l1 = sumZ w l2.
Proof. induction 1; cbn [sumZ]; lia. Qed.

Lemma sumZ_le w v l : Forall (fun x => w x <= v x) l -> sumZ w l <= sumZ v l.
Proof. induction 1; cbn [sumZ]; lia. Qed.

Lemma sumZ_nonneg w l : Forall (fun x => 0 <= w x) l -> 0 <= sumZ w l.
Proof. induction 1; cbn [sumZ]; lia. Qed.

End Sum.

(* what a bound adds to the sweep's counter *)
Definition sgn (b : bound) : Z := match snd b with Start => 1 | End => -1 end.
(* the counter after the bounds l, were it not to wrap: starts minus ends *)
Definition cntZ (l : list bound) : Z := sumZ sgn l.

Lemma cntZ_snoc l b : cntZ (l ++ [b]) = cntZ l + sgn b.
Proof. unfold cntZ. rewrite sumZ_app. cbn [sumZ]. lia. Qed.

Lemma insR_perm x l : Permutation (insR x l) (x :: l).
Proof.
  induction l as [|y r IH]; cbn [insR]; [reflexivity|].
  destruct (fst y <=? fst x); [|reflexivity].
  rewrite IH. apply perm_swap.
Qed.

Lemma sort_from_perm l : forall acc, Permutation (sort_from acc l) (acc ++ l).
Proof.
  unfold sort_from. induction l as [|x r IH]; intros acc; cbn [fold_left].
  - rewrite app_nil_r. reflexivity.
  - rewrite IH, insR_perm. apply Permutation_middle.
Qed.

Lemma sort_bounds_perm l : Permutation (sort_bounds l) l.
Proof. exact (sort_from_perm l []). Qed.

(* the order of the sort: by time alone *)
Definition lek (x y : bound) : Prop := fst x <= fst y.

Lemma insR_sorted x l : StronglySorted lek l -> StronglySorted lek (insR x l).
Proof.
  induction l as [|y r IH]; intros Hs; cbn [insR].
  - constructor; constructor.
  - apply StronglySorted_inv in Hs. destruct Hs as [Hr Hy].
    destruct (Z.leb_spec (fst y) (fst x)) as [Hle|Hgt].
    + constructor; [apply IH; exact Hr|].
      apply (Permutation_Forall (Permutation_sym (insR_perm x r))). constructor; assumption.
    + constructor; [constructor; assumption|].
      constructor; [unfold lek; lia|].
      eapply Forall_impl; [|exact Hy]. unfold lek. intros a Ha. lia.
Qed.

Lemma sort_from_sorted l : forall acc, StronglySorted lek acc -> StronglySorted lek (sort_from acc l).
Proof.
  unfold sort_from. induction l as [|x r IH]; intros acc Hs; cbn [fold_left]; [exact Hs|].
  apply IH. apply insR_sorted. exact Hs.
Qed.

Lemma sorted_split P x R :
  StronglySorted lek (P ++ x :: R) ->
  Forall (fun y => fst y <= fst x) P /\ Forall (fun y => fst x <= fst y) R.
Proof.
  induction P as [|p P IH]; cbn [app]; intros Hs; apply StronglySorted_inv in Hs; destruct Hs as [Hr Hf].
  - split; [constructor|exact Hf].
  - destruct (IH Hr) as [H1 H2]. split; [|exact H2].
    constructor; [|exact H1].
    apply Forall_elt in Hf. exact Hf.
Qed.

(* starting from a counter of n, no End of l meets a counter of 0 *)
Fixpoint balanced (n : nat) (l : list bound) : Prop :=
  match l with
  | [] => True
  | (_, Start) :: r => balanced (S n) r
  | (_, End) :: r => match n with O => False | S m => balanced m r end
  end.

Lemma balanced_insR_end t : forall l n,
  balanced n l -> balanced (S n) (insR (t, End) l).
Proof.
  induction l as [|[u k] r IH]; intros n Hb; cbn [insR fst]; [exact Hb|].
  destruct (u <=? t); [|exact Hb].
  destruct k; [|destruct n as [|m]; [destruct Hb|]]; cbn [balanced] in *; apply IH; exact Hb.
Qed.

(* the sort is stable, so the End of an interval goes behind its Start even when lo = hi *)
Lemma balanced_insR_pair lo hi : lo <= hi -> forall l n,
  balanced n l -> balanced n (insR (hi, End) (insR (lo, Start) l)).
Proof.
  intros Hle. induction l as [|[u k] r IH]; intros n Hb; cbn [insR fst].
  - destruct (Z.leb_spec lo hi); [exact Hb|lia].
  - destruct (Z.leb_spec u lo) as [H1|H1]; cbn [insR fst].
    + destruct (Z.leb_spec u hi) as [H2|H2]; [|lia].
      destruct k; [|destruct n as [|m]; [destruct Hb|]]; cbn [balanced] in *; apply IH; exact Hb.
    + destruct (Z.leb_spec lo hi); [|lia].
      apply (balanced_insR_end hi ((u, k) :: r) n Hb).
Qed.

Definition wellformed (cf : cfg) (cands : list cand) : Prop :=
  forall c, In c cands -> voter cf c = true -> c_lo c <= c_hi c.

Lemma balanced_sort_bounds cf cands : wellformed cf cands -> forall acc n,
  balanced n acc -> balanced n (sort_from acc (bounds_of cf cands)).
Proof.
  induction cands as [|c r IH]; intros Hw acc n Hb; [exact Hb|].
  assert (Hwr : wellformed cf r) by (intros x Hx; apply Hw; right; exact Hx).
  cbn [bounds_of]. destruct (voter cf c) eqn:Hv; [|apply IH; assumption].
  unfold sort_from. cbn [fold_left]. apply (IH Hwr).
  apply balanced_insR_pair; [|exact Hb].
  apply Hw; [left; reflexivity|exact Hv].
Qed.

(* the invariant of the sweep after the bounds P: the counter has not wrapped; maxlow is its peak,
   first reached by the Start at tlow; maxhigh is the highest counter an End has met, so it has
   caught up with maxlow unless the counter stands at the peak *)
Definition SweepInv (P : list bound) (st : sw) : Prop :=
  (cur st = cntZ P /\ 0 <= maxhigh st <= maxlow st /\ cur st <= maxlow st /\
   (maxhigh st = maxlow st \/ cur st = maxlow st)) /\
  underflow st = false /\
  (maxlow st = 0 \/ exists P1 R1, P = P1 ++ (tlow st, Start) :: R1 /\ maxlow st = cntZ P1 + 1).

Lemma step_inv P st b :
  SweepInv P st -> 0 <= cur st + sgn b < 2 ^ 64 -> SweepInv (P ++ [b]) (step st b).
Proof.
  intros (Ha & Huf & Hw) Hb.
  assert (Hw' : maxlow st = 0 \/
                exists P1 R1, P ++ [b] = P1 ++ (tlow st, Start) :: R1 /\ maxlow st = cntZ P1 + 1).
  { destruct Hw as [Hz|(P1 & R1 & -> & Hm)]; [left; exact Hz|].
    right. exists P1, (R1 ++ [b]). split; [|exact Hm]. rewrite <- app_assoc. reflexivity. }
  (* the state is brought to the form mkSw .. before SweepInv, which mentions it a dozen times, is
     unfolded *)
  unfold step. destruct b as [t [|]]; unfold sgn in Hb; cbn [snd fst] in Hb |- *; cbv zeta;
    rewrite wrap_small by exact Hb.
  - destruct (Z.gtb_spec (cur st + 1) (maxlow st)) as [Hg|Hg]; unfold SweepInv; rewrite cntZ_snoc;
      cbn [cur maxlow maxhigh tlow thigh underflow sgn snd];
      (split; [lia|]); (split; [exact Huf|]); [|exact Hw'].
    right. exists P, []. split; [reflexivity|lia].
  - rewrite Huf. replace (cur st =? 0) with false by (symmetry; apply Z.eqb_neq; lia).
    destruct (Z.gtb_spec (cur st) (maxhigh st)) as [Hg|Hg]; unfold SweepInv; rewrite cntZ_snoc;
      cbn [cur maxlow maxhigh tlow thigh underflow sgn snd];
      (split; [lia|]); (split; [reflexivity|exact Hw']).
Qed.

Lemma sweep_inv l : forall n P st,
  SweepInv P st -> cntZ P = Z.of_nat n -> balanced n l ->
  cntZ P + Z.of_nat (length l) < 2 ^ 64 ->
  SweepInv (P ++ l) (fold_left step l st).
Proof.
  induction l as [|b r IH]; intros n P st HI Hn Hb Hlen.
  - rewrite app_nil_r. exact HI.
  - cbn [fold_left length] in *. rewrite Nat2Z.inj_succ in Hlen.
    replace (P ++ b :: r) with ((P ++ [b]) ++ r) by (rewrite <- app_assoc; reflexivity).
    assert (exists m, balanced m r /\ Z.of_nat m = cntZ P + sgn b /\ sgn b <= 1) as (m & Hm & Hc & Hs).
    { destruct b as [t [|]]; [exists (S n)|destruct n as [|m]; [destruct Hb|exists m]];
        unfold sgn; cbn [snd]; (split; [exact Hb|lia]). }
    apply (IH m); [apply step_inv; [exact HI|] | rewrite cntZ_snoc; lia | exact Hm | rewrite cntZ_snoc; lia].
    destruct HI as [[-> _] _]. lia.
Qed.

Definition small (cands : list cand) : Prop := Z.of_nat (length cands) < 2 ^ 61.

Definition agreeing (cf : cfg) (t : Z) (c : cand) : bool :=
  voter cf c && (c_lo c <=? t) && (t <=? c_hi c).

Lemma agreeing_spec cf t c :
  agreeing cf t c = true <-> voter cf c = true /\ c_lo c <= t <= c_hi c.
Proof. unfold agreeing. rewrite !andb_true_iff, !Z.leb_le. tauto. Qed.

Lemma length_bounds cf cands :
  Z.of_nat (length (bounds_of cf cands)) = 2 * countc (voter cf) cands.
Proof.
  induction cands as [|c r IH]; [reflexivity|].
  cbn [bounds_of countc]. destruct (voter cf c); [|lia].
  cbn [length]. rewrite !Nat2Z.inj_succ. lia.
Qed.

Lemma cntZ_bounds cf cands : cntZ (bounds_of cf cands) = 0.
Proof.
  induction cands as [|c r IH]; [reflexivity|].
  cbn [bounds_of]. destruct (voter cf c); [|exact IH].
  unfold cntZ in *. cbn [sumZ]. unfold sgn at 1 2. cbn [snd]. lia.
Qed.

(* what a bound adds to the number of voters whose interval contains t *)
Definition wt (t : Z) (b : bound) : Z :=
  match snd b with
  | Start => if fst b <=? t then 1 else 0
  | End => if fst b <? t then -1 else 0
  end.

Lemma wt_bounds cf t cands : wellformed cf cands ->
  sumZ (wt t) (bounds_of cf cands) = countc (agreeing cf t) cands.
Proof.
  induction cands as [|c r IH]; intros Hw; [reflexivity|].
  cbn [bounds_of countc]. rewrite <- IH by (intros x Hx; apply Hw; right; exact Hx).
  unfold agreeing at 1. destruct (voter cf c) eqn:Hv; cbn [andb]; [|lia].
  pose proof (Hw c (or_introl eq_refl) Hv) as Hle.
  cbn [sumZ]. unfold wt at 1 2. cbn [snd fst].
  destruct (Z.leb_spec (c_lo c) t), (Z.ltb_spec (c_hi c) t), (Z.leb_spec t (c_hi c)); cbn [andb]; lia.
Qed.

Lemma wt_ge t b : (fst b <= t -> sgn b <= wt t b) /\ (t <= fst b -> 0 <= wt t b).
Proof.
  destruct b as [u [|]]; unfold sgn, wt; cbn [fst snd];
    destruct (Z.leb_spec u t), (Z.ltb_spec u t); lia.
Qed.

(* the peak of the sweep is witnessed by that many voters around tlow: the bounds up to the Start
   at t lie at or before t and each adds at least its step of the counter; those behind lie at or
   after t and take nothing away *)
Lemma peak_bound cf cands P1 t R1 : wellformed cf cands ->
  sort_bounds (bounds_of cf cands) = P1 ++ (t, Start) :: R1 ->
  cntZ P1 + 1 <= countc (agreeing cf t) cands.
Proof.
  intros Hw HB.
  assert (Hs : StronglySorted lek (P1 ++ (t, Start) :: R1)).
  { rewrite <- HB. apply sort_from_sorted. constructor. }
  destruct (sorted_split _ _ _ Hs) as [HP HR]. cbn [fst] in HP, HR.
  rewrite <- (wt_bounds cf t cands Hw).
  rewrite <- (sumZ_perm (wt t) _ _ (sort_bounds_perm (bounds_of cf cands))), HB, sumZ_app. cbn [sumZ].
  assert (H1 : cntZ P1 <= sumZ (wt t) P1).
  { apply sumZ_le. eapply Forall_impl; [|exact HP]. intros b. apply wt_ge. }
  assert (H2 : 0 <= sumZ (wt t) R1).
  { apply sumZ_nonneg. eapply Forall_impl; [|exact HR]. intros b. apply wt_ge. }
  unfold wt at 2. cbn [snd fst]. rewrite Z.leb_refl. lia.
Qed.

Lemma length_sorted_bounds cf cands :
  Z.of_nat (length (sort_bounds (bounds_of cf cands))) = 2 * countc (voter cf) cands.
Proof. rewrite (Permutation_length (sort_bounds_perm _)). apply length_bounds. Qed.

Lemma cntZ_sorted_bounds cf cands : cntZ (sort_bounds (bounds_of cf cands)) = 0.
Proof. unfold cntZ. rewrite (sumZ_perm _ _ _ (sort_bounds_perm _)). apply cntZ_bounds. Qed.

Lemma sweep_sorted_inv cf cands : wellformed cf cands -> small cands ->
  SweepInv (sort_bounds (bounds_of cf cands)) (sweep (sort_bounds (bounds_of cf cands))).
Proof.
  intros Hw Hsm. apply (sweep_inv (sort_bounds (bounds_of cf cands)) O [] sw_init).
  - unfold SweepInv, cntZ. cbn. split; [lia|]. split; [reflexivity|]. left. reflexivity.
  - reflexivity.
  - apply balanced_sort_bounds; [exact Hw|exact I].
  - pose proof (countc_le_length (voter cf) cands). unfold small in Hsm.
    rewrite length_sorted_bounds. unfold cntZ. cbn [sumZ]. lia.
Qed.

Lemma select_ok cf cands sel : select cf cands = Ok sel ->
  let st := sweep (sort_bounds (bounds_of cf cands)) in
  sel = [] \/
  sel = filter (in_range cf st) cands /\
  min_agreeing cf <= maxlow st /\ 2 * countc (voter cf) cands < wrap 64 (maxlow st * 4).
Proof.
  unfold select. rewrite length_sorted_bounds. destruct (negb _); [discriminate|].
  destruct (_ && _) eqn:Hc; intros H; apply Ok_inj in H; subst sel; [right|left; reflexivity].
  apply andb_true_iff in Hc. destruct Hc as [Hmin Hmaj]. apply Z.geb_le in Hmin. apply Z.gtb_lt in Hmaj.
  auto.
Qed.

(* with well-formed intervals `cur -= 1` is never executed at 0, the sweep ends at 0, and the
   End that meets the peak lifts maxhigh to maxlow *)
Lemma sweep_balanced cf cands : wellformed cf cands -> small cands ->
  let st := sweep (sort_bounds (bounds_of cf cands)) in
  maxlow st = maxhigh st /\ underflow st = false /\ cur st = 0.
Proof.
  intros Hw Hsm st. destruct (sweep_sorted_inv cf cands Hw Hsm) as (Ha & Huf & _). fold st in Ha, Huf.
  rewrite cntZ_sorted_bounds in Ha. repeat split; [lia|exact Huf|lia].
Qed.

(* hence assert_eq!(maxlow, maxhigh), the only panic site of select, is not reached *)
Lemma select_no_panic cf cands : wellformed cf cands -> small cands ->
  exists sel, select cf cands = Ok sel.
Proof.
  intros Hw Hsm. destruct (sweep_balanced cf cands Hw Hsm) as (He & _).
  unfold select. rewrite He, Z.eqb_refl. cbn [negb].
  destruct (_ && _); eexists; reflexivity.
Qed.

(* a non-empty selection: the voters whose interval contains tlow are at least
   minimum_agreeing_sources and a strict majority of all voters *)
Lemma consensus_at_tlow cf cands sel :
  wellformed cf cands -> small cands ->
  select cf cands = Ok sel -> sel <> [] ->
  let n := countc (agreeing cf (tlow (sweep (sort_bounds (bounds_of cf cands))))) cands in
  1 <= n /\ min_agreeing cf <= n /\ countc (voter cf) cands < 2 * n.
Proof.
  intros Hw Hsm Hsel Hne. cbv zeta.
  destruct (select_ok cf cands sel Hsel) as [->|(_ & Hmin & Hmaj)]; [contradiction|].
  pose proof (countc_nonneg (voter cf) cands) as Hv. pose proof (sweep_sorted_inv cf cands Hw Hsm) as HI.
  set (st := sweep (sort_bounds (bounds_of cf cands))) in *.
  destruct HI as ((_ & H0 & _) & _ & [Hz|(P1 & R1 & HB & Hm)]).
  { rewrite Hz, wrap_small in Hmaj by lia. lia. }
  pose proof (peak_bound cf cands P1 (tlow st) R1 Hw HB) as Hpk. rewrite <- Hm in Hpk.
  pose proof (countc_le_length (agreeing cf (tlow st)) cands) as Hle. unfold small in Hsm.
  rewrite wrap_small in Hmaj by lia.
  lia.
Qed.

Definition qualifying (cf : cfg) (c : cand) : bool :=
  c_sync c && fle (c_radius c) (max_unc cf).

Lemma fle_nonan a b : fle a b = true -> isnan a = false.
Proof. unfold fle. destruct (isnan a); [discriminate|reflexivity]. Qed.

Lemma in_range_qualifying cf st c : in_range cf st c = true -> qualifying cf c = true.
Proof.
  unfold in_range, qualifying. rewrite !andb_true_iff. intros [[[Hr _] _] Hs]. auto.
Qed.

Lemma select_filter cf cands sel : select cf cands = Ok sel ->
  exists f, sel = filter f cands /\ forall c, f c = true -> qualifying cf c = true.
Proof.
  intros H. destruct (select_ok cf cands sel H) as [->|[-> _]]; clear H.
  - exists (fun _ => false). split; [|discriminate]. induction cands; auto.
  - eexists. split; [reflexivity|]. apply in_range_qualifying.
Qed.

Definition nonan (cf : cfg) (cands : list cand) : Prop :=
  isnan (max_unc cf) = false /\ forall c, In c cands -> isnan (c_radius c) = false.

Lemma fgt_fle a b : isnan a = false -> isnan b = false -> fgt a b = negb (fle a b).
Proof.
  intros Ha Hb. unfold fgt, fle. rewrite Ha, Hb. cbn [negb andb].
  destruct (Z.gtb_spec (norm a) (norm b)), (Z.leb_spec (norm a) (norm b)); try reflexivity; lia.
Qed.

Lemma voter_qualifying cf c :
  isnan (max_unc cf) = false -> isnan (c_radius c) = false ->
  voter cf c = negb (c_periodic c) && qualifying cf c.
Proof.
  intros Hm Hr. unfold voter, qualifying. rewrite (fgt_fle _ _ Hr Hm).
  destruct (c_periodic c), (fle (c_radius c) (max_unc cf)), (c_sync c); reflexivity.
Qed.

Lemma bounds_of_filter cf f cands : nonan cf cands ->
  (forall c, qualifying cf c = true -> f c = true) ->
  bounds_of cf (filter f cands) = bounds_of cf cands.
Proof.
  intros [Hm Hr] Hf. induction cands as [|c r IH]; [reflexivity|].
  assert (IH' : bounds_of cf (filter f r) = bounds_of cf r)
    by (apply IH; intros x Hx; apply Hr; right; exact Hx).
  pose proof (voter_qualifying cf c Hm (Hr c (or_introl eq_refl))) as Hv.
  cbn [filter bounds_of]. destruct (f c) eqn:Hfc.
  - cbn [bounds_of]. rewrite IH'. reflexivity.
  - destruct (qualifying cf c) eqn:Hq; [rewrite (Hf c Hq) in Hfc; discriminate|].
    rewrite Hv, andb_false_r. exact IH'.
Qed.

(* candidates that do not qualify contribute no bounds and fail the second filter: removing any
   of them beforehand changes nothing *)
Lemma select_ignores_unqualified cf f cands : nonan cf cands ->
  (forall c, qualifying cf c = true -> f c = true) ->
  select cf (filter f cands) = select cf cands.
Proof.
  intros Hn Hf. unfold select. rewrite (bounds_of_filter cf f cands Hn Hf).
  destruct (negb _); [reflexivity|]. destruct (_ && _); [|reflexivity].
  f_equal. apply filter_filter_sub. intros x Hx. apply Hf, (in_range_qualifying cf _ x Hx).
Qed.
