(* Refinement of the ring buffer (Model/CookieStash.v) to a list of cookies,
   oldest first. *)
From V Require Import Model.CookieStash.
From V Require Import Gen.ConstSource.

(* [simpl] must leave the index arithmetic [(rd + i) mod n] as it is *)
Local Arguments Nat.modulo : simpl never.
Local Arguments Nat.div : simpl never.
Local Arguments Nat.sub : simpl nomatch.

Lemma NCOOK_8 : NCOOK = 8%nat.
Proof. reflexivity. Qed.

Lemma mod_wrap : forall a n, (n <= a < 2 * n)%nat -> (a mod n = a - n)%nat.
Proof. intros a n H. symmetry. apply Nat.mod_unique with (q := 1%nat); lia. Qed.

(* distinct offsets below the capacity are distinct cells *)
Lemma ring_inj : forall n r i j, (r < n)%nat -> (i < n)%nat -> (j < n)%nat ->
  ((r + i) mod n = (r + j) mod n)%nat -> i = j.
Proof.
  intros n r i j Hr Hi Hj.
  destruct (Nat.lt_ge_cases (r + i) n); destruct (Nat.lt_ge_cases (r + j) n);
    rewrite ?(Nat.mod_small (r + i)), ?(Nat.mod_small (r + j)),
            ?(mod_wrap (r + i)), ?(mod_wrap (r + j)) by lia; lia.
Qed.

(* a proper offset leaves the cell *)
Lemma ring_neq : forall n r k, (r < n)%nat -> (0 < k < n)%nat -> ((r + k) mod n)%nat <> r.
Proof.
  intros n r k Hr Hk.
  destruct (Nat.lt_ge_cases (r + k) n); [rewrite Nat.mod_small|rewrite mod_wrap]; lia.
Qed.

Lemma ring_succ : forall n r i, (0 < n)%nat -> ((((r + 1) mod n) + i) mod n = (r + S i) mod n)%nat.
Proof. intros. rewrite Nat.add_mod_idemp_l by lia. f_equal. lia. Qed.

Section StashProofs.
Context {C : Type}.
Variable dflt : C.

Lemma length_upd : forall (l : list C) i x, length (upd i x l) = length l.
Proof. induction l; destruct i; simpl; auto. Qed.

Lemma nth_upd_eq : forall (l : list C) i x d, (i < length l)%nat -> nth i (upd i x l) d = x.
Proof. induction l; destruct i; simpl; intros; try lia; auto. apply IHl. lia. Qed.

Lemma nth_upd_neq : forall (l : list C) i j x d, i <> j -> nth j (upd i x l) d = nth j l d.
Proof.
  induction l; destruct i; destruct j; simpl; intros; try congruence; auto.
Qed.

Lemma length_abs : forall s : stash C, length (abs dflt s) = valid s.
Proof. intros. unfold abs. rewrite map_length, seq_length. reflexivity. Qed.

Lemma inv_default : stash_inv (stash_default dflt).
Proof. unfold stash_inv, stash_default; cbn [cookies rd valid]. rewrite repeat_length, NCOOK_8. lia. Qed.

Lemma abs_default : abs dflt (stash_default dflt) = [].
Proof. reflexivity. Qed.

Lemma inv_store : forall (s : stash C) c, stash_inv s -> stash_inv (store s c).
Proof.
  unfold stash_inv, store. intros s c (Hl & Hr & Hv). rewrite NCOOK_8 in *. rewrite Hl.
  destruct (Nat.ltb_spec (valid s) 8); simpl; rewrite length_upd, Hl; repeat split; try lia.
  apply Nat.mod_upper_bound. lia.
Qed.

Lemma inv_get : forall s : stash C, stash_inv s -> stash_inv (snd (get dflt s)).
Proof.
  unfold stash_inv, get. intros s (Hl & Hr & Hv). rewrite NCOOK_8 in *.
  destruct (valid s) eqn:E; simpl; [rewrite E; auto|].
  rewrite length_upd, Hl. repeat split; try lia. apply Nat.mod_upper_bound. lia.
Qed.

(* an empty stash is left as it is *)
Lemma get_none : forall s : stash C, fst (get dflt s) = None -> snd (get dflt s) = s.
Proof. intros s. unfold get. destruct (valid s); [reflexivity|discriminate]. Qed.

Lemma lastn_short : forall (l : list C) n, (length l <= n)%nat -> lastn n l = l.
Proof. intros. unfold lastn. replace (length l - n)%nat with 0%nat by lia. reflexivity. Qed.

Lemma lastn_length : forall (l : list C) n, length (lastn n l) = Nat.min n (length l).
Proof. intros. unfold lastn. rewrite skipn_length. lia. Qed.

Lemma lastn_suffix : forall (l : list C) n, exists p, l = p ++ lastn n l.
Proof. intros. exists (firstn (length l - n) l). unfold lastn. symmetry. apply firstn_skipn. Qed.

Lemma lastn_full_snoc : forall (l : list C) c n,
  length l = n -> (0 < n)%nat -> lastn n (l ++ [c]) = tl l ++ [c].
Proof.
  intros. unfold lastn. rewrite app_length. simpl.
  replace (length l + 1 - n)%nat with 1%nat by lia.
  destruct l; simpl in *; [lia|reflexivity].
Qed.

(* a prefix in front of at least [n] elements does not matter *)
Lemma lastn_app_long : forall (p x : list C) n, (n <= length x)%nat -> lastn n (p ++ x) = lastn n x.
Proof.
  intros p x n H. unfold lastn. rewrite app_length.
  replace (length p + length x - n)%nat with (length p + (length x - n))%nat by lia.
  generalize (length x - n)%nat. induction p; simpl; auto.
Qed.

Lemma lastn_lastn_app : forall (l m : list C) n,
  lastn n (lastn n l ++ m) = lastn n (l ++ m).
Proof.
  intros l m n. destruct (Nat.le_gt_cases (length l) n) as [H|H].
  - rewrite (lastn_short l) by lia. reflexivity.
  - destruct (lastn_suffix l n) as [p Hp]. rewrite Hp at 2.
    rewrite <- app_assoc. symmetry. apply lastn_app_long.
    rewrite app_length, lastn_length. lia.
Qed.

(* store appends, and drops the oldest cookie when the array is full; for an array of any
   length [n]: cell [i] of the abstraction is array cell [(rd + i) mod n] *)
Lemma abs_store_n : forall n (s : stash C) c,
  length (cookies s) = n -> (rd s < n)%nat -> (valid s <= n)%nat ->
  abs dflt (store s c) = lastn n (abs dflt s ++ [c]).
Proof.
  intros n [cs r v] c Hl Hr Hv. cbn [cookies rd valid] in *. unfold store; cbn [cookies rd valid]. rewrite Hl.
  destruct (Nat.ltb_spec v n) as [Hlt|Hge]; unfold abs; cbn [cookies rd valid]; rewrite length_upd, Hl.
  - (* room left: the new cell is none of the old ones *)
    rewrite lastn_short by (rewrite app_length, map_length, seq_length; simpl; lia).
    rewrite seq_S, map_app. cbn [map Nat.add]. f_equal.
    + apply map_ext_in. intros i Hi. apply in_seq in Hi. apply nth_upd_neq.
      intros E. apply ring_inj in E; lia.
    + f_equal. apply nth_upd_eq. rewrite Hl. apply Nat.mod_upper_bound. lia.
  - (* full: the write position is the read position, which moves on *)
    assert (v = n) by lia. subst v. rewrite (mod_wrap (r + n)) by lia.
    replace (r + n - n)%nat with r by lia.
    rewrite lastn_full_snoc by (rewrite ?map_length, ?seq_length; lia).
    destruct n as [|m]; [lia|]. rewrite seq_S at 1. rewrite map_app. cbn [map Nat.add seq tl].
    rewrite <- seq_shift, map_map. f_equal.
    + apply map_ext_in. intros i Hi. apply in_seq in Hi. rewrite ring_succ by lia. apply nth_upd_neq.
      intros E. symmetry in E. apply ring_neq in E; lia.
    + f_equal. rewrite ring_succ by lia. rewrite (mod_wrap (r + S m)) by lia.
      replace (r + S m - S m)%nat with r by lia. apply nth_upd_eq. lia.
Qed.

(* get yields the oldest cookie and removes it; again for any length [n] *)
Lemma abs_get_n : forall n (s : stash C),
  length (cookies s) = n -> (rd s < n)%nat -> (valid s <= n)%nat ->
  fst (get dflt s) = hd_error (abs dflt s) /\ abs dflt (snd (get dflt s)) = tl (abs dflt s).
Proof.
  intros n [cs r [|v]] Hl Hr Hv; cbn [cookies rd valid] in *; [split; reflexivity|].
  unfold get, abs; cbn [cookies rd valid fst snd]. rewrite length_upd, Hl.
  cbn [seq map hd_error tl]. rewrite Nat.add_0_r, Nat.mod_small by assumption. split; [reflexivity|].
  rewrite <- seq_shift, map_map. apply map_ext_in. intros i Hi. apply in_seq in Hi.
  rewrite ring_succ by lia. apply nth_upd_neq.
  intros E. symmetry in E. apply ring_neq in E; lia.
Qed.

Lemma abs_store : forall (s : stash C) c, stash_inv s ->
  abs dflt (store s c) = lastn NCOOK (abs dflt s ++ [c]).
Proof. intros s c (Hl & Hr & Hv). apply abs_store_n; assumption. Qed.

Lemma abs_get : forall s : stash C, stash_inv s ->
  fst (get dflt s) = hd_error (abs dflt s) /\ abs dflt (snd (get dflt s)) = tl (abs dflt s).
Proof. intros s (Hl & Hr & Hv). apply (abs_get_n NCOOK); assumption. Qed.

Lemma gap_abs : forall s : stash C, stash_inv s ->
  gap s = MAX_COOKIES - Z.of_nat (length (abs dflt s)).
Proof.
  unfold stash_inv, gap. intros s (Hl & Hr & Hv). rewrite length_abs, Hl.
  rewrite NCOOK_8 in *. unfold MAX_COOKIES. apply Z.mod_small. lia.
Qed.

Lemma abs_bounded : forall s : stash C, stash_inv s -> (length (abs dflt s) <= NCOOK)%nat.
Proof. unfold stash_inv. intros s (_ & _ & Hv). rewrite length_abs. exact Hv. Qed.

Lemma inv_store_many : forall cs (s : stash C), stash_inv s -> stash_inv (fold_left store cs s).
Proof. induction cs; simpl; intros; auto. apply IHcs. apply inv_store; auto. Qed.

(* several cookies stored in a row: the newest eight of everything survive *)
Lemma abs_store_many : forall cs (s : stash C), stash_inv s ->
  abs dflt (fold_left store cs s) = lastn NCOOK (abs dflt s ++ cs).
Proof.
  induction cs; simpl; intros s Hs.
  - rewrite app_nil_r. symmetry. apply lastn_short. apply abs_bounded; auto.
  - rewrite IHcs by (apply inv_store; auto). rewrite abs_store by auto.
    rewrite lastn_lastn_app. rewrite <- app_assoc. reflexivity.
Qed.

End StashProofs.
