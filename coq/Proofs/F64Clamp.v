(* f64::clamp on binary64 (Coq primitive floats): the result is within [lo, hi], or NaN
   exactly when the argument is NaN.  Uses Flocq's correspondence between the primitive
   comparisons and the comparison of IEEE 754 binary floats. *)
From V Require Import Model.FloatBits.
From Flocq Require IEEE754.PrimFloat.

Module BS := Flocq.IEEE754.BinarySingleNaN.
Module FP := Flocq.IEEE754.PrimFloat.

Definition fnan (x : float) : bool := negb (x =? x)%float.

Notation bcmp x y := (BS.Bcompare (FP.Prim2B x) (FP.Prim2B y)).

Lemma ltb_cmp x y : (x <? y)%float = match bcmp x y with Some Lt => true | _ => false end.
Proof. rewrite FP.ltb_equiv. reflexivity. Qed.

Lemma leb_cmp x y : (x <=? y)%float = match bcmp x y with Some Lt | Some Eq => true | _ => false end.
Proof. rewrite FP.leb_equiv. reflexivity. Qed.

Lemma eqb_cmp x y : (x =? y)%float = match bcmp x y with Some Eq => true | _ => false end.
Proof. rewrite FP.eqb_equiv. reflexivity. Qed.

Lemma cmp_swap x y : bcmp y x = match bcmp x y with Some c => Some (CompOpp c) | None => None end.
Proof. apply BS.Bcompare_swap. Qed.

Lemma SFcompare_refl_some (f : spec_float) :
  SFcompare f f = None \/ SFcompare f f = Some Eq.
Proof.
  destruct f as [s|s| |s m e]; cbn; auto.
  - destruct s; auto.
  - rewrite Z.compare_refl, Pos.compare_cont_refl. destruct s; auto.
Qed.

(* comparing with itself: None for NaN, Some Eq otherwise *)
Lemma cmp_refl x : bcmp x x = None \/ bcmp x x = Some Eq.
Proof. unfold BS.Bcompare. apply SFcompare_refl_some. Qed.

Lemma fnan_cmp x : fnan x = true <-> bcmp x x = None.
Proof.
  unfold fnan. rewrite eqb_cmp. destruct (cmp_refl x) as [H|H]; rewrite H; cbn; split; congruence.
Qed.

Lemma SFcompare_none (a b : spec_float) : SFcompare a b = None -> SFcompare a a = None \/ SFcompare b b = None.
Proof.
  destruct a as [s|s| |s m e], b as [s'|s'| |s' m' e']; cbn; auto; discriminate.
Qed.

(* a comparison is undefined only when one side is NaN *)
Lemma cmp_none x y : bcmp x y = None -> fnan x = true \/ fnan y = true.
Proof.
  intros H. rewrite !fnan_cmp. unfold BS.Bcompare in *. now apply SFcompare_none.
Qed.

Lemma cmp_nan_l x y : fnan x = true -> bcmp x y = None.
Proof.
  rewrite fnan_cmp. unfold BS.Bcompare.
  destruct (BS.B2SF (FP.Prim2B x)) as [s|s| |s m e]; cbn; try discriminate; auto.
Qed.

Lemma cmp_nan_r x y : fnan y = true -> bcmp x y = None.
Proof. intros H. rewrite (cmp_swap y x), (cmp_nan_l y x H). reflexivity. Qed.

Lemma fnan_is_nan x : fnan x = BS.is_nan (FP.Prim2B x).
Proof. unfold fnan. rewrite FP.eqb_equiv, BS.Beqb_refl, negb_involutive. reflexivity. Qed.

Lemma cmp_some x y : fnan x = false -> fnan y = false -> exists c, bcmp x y = Some c.
Proof.
  intros Hx Hy. destruct (bcmp x y) eqn:E; eauto.
  apply cmp_none in E. destruct E; congruence.
Qed.

Lemma ltb_nan_l x y : fnan x = true -> (x <? y)%float = false.
Proof. intros H. rewrite ltb_cmp, (cmp_nan_l x y H). reflexivity. Qed.

Lemma ltb_nan_r x y : fnan y = true -> (x <? y)%float = false.
Proof. intros H. rewrite ltb_cmp, (cmp_nan_r x y H). reflexivity. Qed.

Lemma ltb_true_notnan x y : (x <? y)%float = true -> fnan x = false /\ fnan y = false.
Proof.
  intros H. split.
  - destruct (fnan x) eqn:E; auto. rewrite (ltb_nan_l x y E) in H. discriminate.
  - destruct (fnan y) eqn:E; auto. rewrite (ltb_nan_r x y E) in H. discriminate.
Qed.

Lemma leb_true_notnan x y : (x <=? y)%float = true -> fnan x = false /\ fnan y = false.
Proof.
  rewrite leb_cmp. intros H. split.
  - destruct (fnan x) eqn:E; auto. rewrite (cmp_nan_l x y E) in H. discriminate.
  - destruct (fnan y) eqn:E; auto. rewrite (cmp_nan_r x y E) in H. discriminate.
Qed.

Lemma leb_refl x : fnan x = false -> (x <=? x)%float = true.
Proof.
  intros H. rewrite leb_cmp. destruct (cmp_refl x) as [E|E]; rewrite E; auto.
  apply fnan_cmp in E. congruence.
Qed.

(* totality of the order on non-NaN values *)
Lemma ltb_false_leb x y : (x <? y)%float = false -> fnan x = false -> fnan y = false ->
  (y <=? x)%float = true.
Proof.
  rewrite ltb_cmp, leb_cmp. intros H Hx Hy. rewrite (cmp_swap x y).
  destruct (cmp_some x y Hx Hy) as [c E]. rewrite E in *. destruct c; auto; discriminate.
Qed.

Lemma leb_true_ltb x y : (x <=? y)%float = true -> (y <? x)%float = false.
Proof.
  rewrite ltb_cmp, leb_cmp. intros H. rewrite (cmp_swap x y).
  destruct (bcmp x y) as [[]|]; auto; discriminate.
Qed.

(* the two tests of f64::clamp, once its assert has passed *)
Lemma clamp_core_in_range x lo hi : (lo <=? hi)%float = true ->
  (fnan x = true -> fnan (clamp_core x lo hi) = true) /\
  (fnan x = false -> fnan (clamp_core x lo hi) = false /\
     (lo <=? clamp_core x lo hi)%float = true /\ (clamp_core x lo hi <=? hi)%float = true).
Proof.
  intros Hle. unfold clamp_core.
  destruct (leb_true_notnan _ _ Hle) as [Nlo Nhi].
  destruct (x <? lo)%float eqn:C1.
  - (* below: the result is lo *)
    destruct (ltb_true_notnan _ _ C1) as [Nx _].
    rewrite (leb_true_ltb _ _ Hle). split; [intros; congruence|]. intros _.
    split; auto. split; auto. now apply leb_refl.
  - destruct (hi <? x)%float eqn:C2.
    + (* above: the result is hi *)
      destruct (ltb_true_notnan _ _ C2) as [_ Nx].
      split; [intros; congruence|]. intros _. split; auto. split; auto. now apply leb_refl.
    + (* the argument itself *)
      split; auto. intros Nx. split; auto. split; now apply ltb_false_leb.
Qed.

Theorem clamp_in_range x lo hi r : f64_clamp x lo hi = Ok r ->
  (lo <=? hi)%float = true /\
  (fnan x = true -> fnan r = true) /\
  (fnan x = false -> fnan r = false /\ (lo <=? r)%float = true /\ (r <=? hi)%float = true).
Proof.
  unfold f64_clamp. destruct (lo <=? hi)%float eqn:Hle; [|discriminate].
  intros [= <-]. split; [reflexivity | now apply clamp_core_in_range].
Qed.

(* -max is NaN exactly when max is, so a successful clamp to [-max, max] has a non-NaN max *)
Theorem clamp_sym_in_range x mx r : f64_clamp x (- mx)%float mx = Ok r ->
  fnan mx = false /\
  (fnan x = true -> fnan r = true) /\
  (fnan x = false -> fnan r = false /\ (- mx <=? r)%float = true /\ (r <=? mx)%float = true).
Proof.
  intros H. destruct (clamp_in_range _ _ _ _ H) as (H1 & H2 & H3).
  split; auto. apply (leb_true_notnan _ _ H1).
Qed.
