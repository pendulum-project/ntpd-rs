(* Lemmas about Model/Response.v: sizes of re-encoded fields, serialize in three steps, the seven builders as one
   answer, and the decision. *)
From V Require Import Model.Response Gen.ConstResponse Proofs.Common.
From Coq Require Import ZifyBool.
(* lia handles / and mod in this file and in the files that import it; importing ZifyBool again after this file
   puts the default hook back *)
Ltac Zify.zify_post_hook ::= Z.div_mod_to_equations.

(* the numeric constants of the response path by their values, in goal and hypotheses, so that lia sees numbers *)
Ltac consts :=
  unfold EF_HEADER_LENGTH, MIN_UNTRUSTED_V4_LAST, MIN_UNTRUSTED_V4, MIN_UNTRUSTED_V5, MIN_AUTHENTICATED,
    MIN_ENCRYPTED, MIN_V5_PADDING, NONCE_LEN_256, HEADER_V4_LENGTH, RESP_MAX_COOKIES, MAC_MAXIMUM_SIZE,
    AEAD_ID_256, AEAD_ID_512, COOKIE_KEYWIDTH_256, COOKIE_KEYWIDTH_512 in *.

(* Model/Response.v has its own [len] (any list) and [next4]; Proofs/Bytes.v has the same facts for the [blen] and
   [nm4] of Model/Bytes.v *)
Lemma len_app {A} (a b : list A) : len (a ++ b) = len a + len b.
Proof. unfold len. rewrite app_length. lia. Qed.
Lemma len_nonneg {A} (l : list A) : 0 <= len l.
Proof. unfold len. lia. Qed.
Lemma len_nil {A} : len (@nil A) = 0.
Proof. reflexivity. Qed.
Lemma len_cons {A} (x : A) l : len (x :: l) = 1 + len l.
Proof. unfold len. simpl length. lia. Qed.
Lemma len_zeros n : len (zeros n) = Z.max 0 n.
Proof. unfold len, zeros. rewrite repeat_length. lia. Qed.
(* pushes [len] through appends, conses and runs of zeros *)
Ltac lens := repeat (rewrite len_app || rewrite len_cons || rewrite len_zeros || rewrite len_nil).
Lemma next4_ge n : n <= next4 n.
Proof. unfold next4. destruct (n mod 4 =? 0) eqn:E; lia. Qed.
Lemma next4_lt n : next4 n < n + 4.
Proof. unfold next4. destruct (n mod 4 =? 0) eqn:E; lia. Qed.
Lemma next4_mod n : next4 n mod 4 = 0.
Proof. unfold next4. destruct (n mod 4 =? 0) eqn:E; lia. Qed.
Lemma next4_id n : n mod 4 = 0 -> next4 n = n.
Proof. unfold next4. intros H. rewrite H. reflexivity. Qed.
Lemma next4_mono a b : a <= b -> next4 a <= next4 b.
Proof.
  intros H. pose proof (next4_mod a). pose proof (next4_mod b).
  pose proof (next4_ge a). pose proof (next4_ge b). pose proof (next4_lt a). pose proof (next4_lt b). lia.
Qed.
Lemma sumZ_app a b : sumZ (a ++ b) = sumZ a + sumZ b.
Proof. induction a; simpl; lia. Qed.

(* closed formula for the size of a re-encoded field *)
Definition esz (min : Z) (f : field) : Z :=
  match f with
  | FUid d | FDraft d => next4 (Z.max (len d + 4) min)
  | FCookie n | FPlaceholder n | FUnknown _ n => next4 (Z.max (Z.max 0 n + 4) min)
  | FRefResp d => next4 (len d + 4)
  | FRefReq plen _ => 8 + 4 * Z.max 0 (plen / 4 - 1)
  | FPadding n => next4 (Z.max n min)
  | FInvalidNts => 0
  end.
Fixpoint esz_list (minf : bool -> Z) (fs : list field) : Z :=
  match fs with [] => 0 | f :: r => esz (minf (is_nil r)) f + esz_list minf r end.

Lemma enc_generic_len ty data min v5 b :
  enc_generic ty data min v5 = Ok b -> len b = next4 (Z.max (len data + 4) min).
Proof.
  unfold enc_generic, enc_framing, enc_padding. consts.
  destruct (len data >? 65535 - 4) eqn:E; simpl; [discriminate|].
  intros H. inversion H; subst. unfold be16. lens.
  pose proof (next4_ge (Z.max (len data + 4) min)). lia.
Qed.

Lemma enc_generic_ok ty data min v5 :
  len data <= 65531 -> exists b, enc_generic ty data min v5 = Ok b.
Proof.
  intros H. unfold enc_generic, enc_framing, enc_padding. consts.
  destruct (len data >? 65535 - 4) eqn:E; [lia|]. simpl. eauto.
Qed.

Definition not_padding (f : field) : Prop := match f with FPadding _ => False | _ => True end.

Lemma encode_field_len v5 min f b :
  not_padding f -> encode_field v5 min f = Ok b -> len b = esz min f.
Proof.
  destruct f; unfold encode_field, esz, not_padding; intros NP H; try contradiction; try discriminate.
  1-4, 7: apply enc_generic_len in H; rewrite ?len_zeros in H; exact H.
  - destruct (negb (plen mod 4 =? 0)); [discriminate|]. apply Ok_inj in H. rewrite <- H.
    unfold be16. lens. lia.
  - destruct (len d >? 65535) eqn:E; [discriminate|]. apply Ok_inj in H. rewrite <- H.
    unfold be16. lens. unfold wrap. change (2 ^ 16) with 65536. pose proof (len_nonneg d).
    unfold next4. destruct ((len d + 4) mod 4 =? 0) eqn:E2; lia.
Qed.

Lemma esz_mod4 min f : esz min f mod 4 = 0.
Proof.
  destruct f; unfold esz; try apply next4_mod; lia.
Qed.

Lemma encode_fields_len v5 minf fs b :
  Forall not_padding fs -> encode_fields v5 minf fs = Ok b -> len b = esz_list minf fs.
Proof.
  revert b. induction fs as [|f r IH]; simpl; intros b NP H.
  - inversion H. reflexivity.
  - inversion NP; subst.
    destruct (encode_field v5 (minf (is_nil r)) f) eqn:E1; simpl in H; try discriminate.
    destruct (encode_fields v5 minf r) eqn:E2; simpl in H; try discriminate.
    inversion H; subst. rewrite len_app. erewrite encode_field_len by eauto. rewrite (IH a0); auto.
Qed.

Lemma esz_list_mod4 minf fs : esz_list minf fs mod 4 = 0.
Proof.
  induction fs as [|f r IH]; simpl; [reflexivity|].
  pose proof (esz_mod4 (minf (is_nil r)) f). lia.
Qed.

(* fields that serialize re-encodes without error *)
Definition encodable (f : field) : Prop :=
  match f with
  | FUid d | FDraft d | FRefResp d => len d <= 65531
  | FCookie n => n <= 65531
  | _ => False
  end.

Lemma encode_field_ok v5 min f : encodable f -> exists b, encode_field v5 min f = Ok b.
Proof.
  destruct f; simpl; intros H; try contradiction.
  - apply enc_generic_ok; auto.
  - apply enc_generic_ok. rewrite len_zeros. lia.
  - apply enc_generic_ok; auto.
  - destruct (len d >? 65535) eqn:E; [lia|]. eauto.
Qed.

Lemma encodable_not_padding f : encodable f -> not_padding f.
Proof. destruct f; simpl; auto. Qed.

Lemma encode_fields_ok v5 minf fs : Forall encodable fs -> exists b, encode_fields v5 minf fs = Ok b.
Proof.
  induction fs as [|f r IH]; simpl; intros H; [eauto|].
  inversion H; subst. destruct (encode_field_ok v5 (minf (is_nil r)) f H2) as [a Ea].
  destruct (IH H3) as [b Eb]. rewrite Ea, Eb. simpl. eauto.
Qed.

Lemma padding_len n b :
  4 <= n < 2 ^ 64 -> n mod 4 = 0 ->
  encode_field true MIN_V5_PADDING (FPadding n) = Ok b -> len b = n.
Proof.
  intros R M. simpl. unfold enc_framing, enc_padding. consts.
  rewrite (wrap_small 64 (n - 4)) by lia.
  destruct (n - 4 >? 65535 - 4) eqn:E; simpl; [discriminate|].
  intros H. inversion H; subst. unfold be16. lens.
  rewrite (next4_id (Z.max (n - 4 + 4) 4)) by lia. lia.
Qed.

Lemma padding_ok n :
  4 <= n <= 65535 -> exists b, encode_field true MIN_V5_PADDING (FPadding n) = Ok b.
Proof.
  intros R. simpl. unfold enc_framing, enc_padding. consts.
  rewrite (wrap_small 64 (n - 4)) by lia.
  destruct (n - 4 >? 65535 - 4) eqn:E; [lia|]. simpl. eauto.
Qed.

Lemma padding_small_err n :
  0 < n < 4 -> exists e, encode_field true MIN_V5_PADDING (FPadding n) = Err e.
Proof.
  intros R. simpl. unfold enc_framing. consts. unfold wrap.
  assert ((n - 4) mod 2 ^ 64 = 2 ^ 64 + n - 4) as -> by (symmetry; apply (Z.mod_unique _ _ (-1)); lia).
  destruct (2 ^ 64 + n - 4 >? 65535 - 4) eqn:E; [|lia]. simpl. eauto.
Qed.

(* the part of serialize before the NTPv5 padding *)
Definition unpadded (a : answer) : res wire :=
  let v5 := a_ver a =? 5 in
  do ap <- (if negb (is_nil (a_auth a)) || negb (is_nil (a_enc a)) then
              if negb (a_cipher a) then Err 4 else
              do ab <- encode_fields v5 min_auth (a_auth a);
              do pb <- encode_fields v5 min_enc (a_enc a);
              let ct := len pb + 16 in
              Ok (ab, Some (8 + next4 NONCE_LEN_256 + next4 ct, NONCE_LEN_256, ct, map cookie_code (a_enc a)))
            else Ok ([], None));
  do ub <- encode_fields v5 (min_untrusted v5) (a_untrusted a);
  Ok {| w_prefix := a_header a ++ fst ap; w_auth := snd ap; w_suffix := ub |}.

(* the NTPv5 padding up to the desired size *)
Definition padded (a : answer) (w0 : wire) : res wire :=
  if a_ver a =? 5 then
    match a_desired a with
    | Some d =>
        if d >? wire_len w0 then
          do p <- encode_field true MIN_V5_PADDING (FPadding (d - wire_len w0));
          Ok {| w_prefix := w_prefix w0; w_auth := w_auth w0; w_suffix := w_suffix w0 ++ p |}
        else Ok w0
    | None => Ok w0
    end
  else Ok w0.

Lemma serialize_v3 a B :
  a_ver a = 3 ->
  serialize a B = if len (a_header a) <=? B then Ok {| w_prefix := a_header a; w_auth := None; w_suffix := [] |} else Err 3.
Proof. intros V. unfold serialize. cbv zeta. rewrite V. reflexivity. Qed.

Lemma serialize_unpadded a B :
  a_ver a <> 3 ->
  serialize a B = do w0 <- unpadded a; do w1 <- padded a w0; if wire_len w1 <=? B then Ok w1 else Err 3.
Proof.
  intros V. unfold serialize, unpadded, padded. cbv zeta. destruct (a_ver a =? 3) eqn:E3; [lia|].
  destruct (if negb (is_nil (a_auth a)) || negb (is_nil (a_enc a)) then _ else _) as [ap| |]; cbn [res_bind]; try reflexivity.
  destruct (encode_fields _ _ (a_untrusted a)) as [ub| |]; reflexivity.
Qed.

Lemma serialize_inv a B w :
  serialize a B = Ok w ->
  wire_len w <= B /\
  (a_ver a = 3 /\ w = {| w_prefix := a_header a; w_auth := None; w_suffix := [] |}
   \/ a_ver a <> 3 /\ exists w0, unpadded a = Ok w0 /\ padded a w0 = Ok w).
Proof.
  destruct (Z.eq_dec (a_ver a) 3) as [V|V].
  - rewrite (serialize_v3 a B V). destruct (len (a_header a) <=? B) eqn:E; [|discriminate].
    intros H. apply Ok_inj in H. subst w. split; [|left; split; [exact V|reflexivity]].
    unfold wire_len, len in *. cbn. lia.
  - rewrite (serialize_unpadded a B V).
    destruct (unpadded a) as [w0| |]; cbn [res_bind]; try discriminate.
    destruct (padded a w0) as [w1| |] eqn:P; cbn [res_bind]; try discriminate.
    destruct (wire_len w1 <=? B) eqn:E; [|discriminate]. intros H. apply Ok_inj in H. subst w1.
    split; [lia|right; split; [exact V|eauto]].
Qed.

Lemma unpadded_inv a w0 :
  unpadded a = Ok w0 ->
  exists ab ub, w_prefix w0 = a_header a ++ ab /\ w_suffix w0 = ub /\
    encode_fields (a_ver a =? 5) (min_untrusted (a_ver a =? 5)) (a_untrusted a) = Ok ub /\
    ((a_auth a = [] /\ a_enc a = [] /\ ab = [] /\ w_auth w0 = None)
     \/ (a_cipher a = true /\ exists pb,
           encode_fields (a_ver a =? 5) min_auth (a_auth a) = Ok ab /\
           encode_fields (a_ver a =? 5) min_enc (a_enc a) = Ok pb /\
           w_auth w0 = Some (8 + next4 NONCE_LEN_256 + next4 (len pb + 16), NONCE_LEN_256, len pb + 16,
                             map cookie_code (a_enc a)))).
Proof.
  unfold unpadded. cbv zeta. intros H.
  destruct (negb (is_nil (a_auth a)) || negb (is_nil (a_enc a))) eqn:EP.
  - destruct (a_cipher a) eqn:EC; cbn [negb] in H; [|discriminate].
    destruct (encode_fields _ min_auth _) as [ab| |] eqn:EA; cbn [res_bind] in H; try discriminate.
    destruct (encode_fields _ min_enc _) as [pb| |] eqn:EE; cbn [res_bind] in H; try discriminate.
    destruct (encode_fields _ _ (a_untrusted a)) as [ub| |] eqn:EU; cbn [res_bind] in H; try discriminate.
    apply Ok_inj in H. subst w0. exists ab, ub. cbn. repeat split. right. eauto 6.
  - cbn [res_bind] in H.
    destruct (encode_fields _ _ (a_untrusted a)) as [ub| |] eqn:EU; cbn [res_bind] in H; try discriminate.
    apply Ok_inj in H. subst w0. exists [], ub. cbn. repeat split. left.
    destruct (a_auth a), (a_enc a); try discriminate. auto.
Qed.

Lemma padded_keeps a w0 w : padded a w0 = Ok w -> w_prefix w = w_prefix w0 /\ w_auth w = w_auth w0.
Proof.
  unfold padded. destruct (a_ver a =? 5), (a_desired a) as [d|]; try (intros H; apply Ok_inj in H; subst w; auto; fail).
  destruct (d >? wire_len w0); [|intros H; apply Ok_inj in H; subst w; auto].
  destruct (encode_field _ _ _); cbn [res_bind]; try discriminate. intros H. apply Ok_inj in H. subst w. auto.
Qed.

Lemma serialize_le a B w : serialize a B = Ok w -> wire_len w <= B.
Proof. intros H. apply (serialize_inv _ _ _ H). Qed.

Lemma handle_respond_inv tf cfg st q recv now mlen B stats w :
  handle tf cfg st q recv now mlen B = ORespond stats w ->
  exists k alg a, decision cfg q = inl (Some (k, alg, stats))
    /\ build tf k alg st q recv now mlen = Ok a /\ serialize a B = Ok w.
Proof.
  unfold handle. destruct (decision cfg q) as [[[[k alg] st0]|]|]; try discriminate.
  unfold respond. destruct (build tf k alg st q recv now mlen) as [a| |] eqn:EB; try discriminate.
  destruct (serialize a B) as [w0| |] eqn:ES; try discriminate.
  intros H. inversion H; subst. eauto 6.
Qed.

Lemma handle_of_build tf cfg st q recv now B k alg stats a w :
  decision cfg q = inl (Some (k, alg, stats)) ->
  build tf k alg st q recv now B = Ok a -> serialize a B = Ok w ->
  handle tf cfg st q recv now B B = ORespond stats w.
Proof. intros HD HB HS. unfold handle. rewrite HD. unfold respond. rewrite HB, HS. reflexivity. Qed.

Lemma handle_le tf cfg st q recv now m B s w :
  handle tf cfg st q recv now m B = ORespond s w -> wire_len w <= B.
Proof. intros H. destruct (handle_respond_inv _ _ _ _ _ _ _ _ _ _ H) as (k & alg & a & _ & _ & S). exact (serialize_le _ _ _ S). Qed.

Lemma echo_uid_In f l : In f (echo_uid l) -> (exists d, f = FUid d) /\ In f l.
Proof.
  unfold echo_uid. rewrite filter_In. intros [HI HU]. split; auto.
  destruct f; simpl in HU; try discriminate. eauto.
Qed.

Lemma echo_v5_In flt f l :
  In f (echo_v5 flt l) ->
  ((exists d, f = FUid d) /\ In f l)
  \/ (exists plen off, In (FRefReq plen off) l /\ refid_response flt plen off = Some f).
Proof.
  induction l as [|x r IH]; simpl; [tauto|].
  assert (R : In f (echo_v5 flt r) ->
              ((exists d, f = FUid d) /\ (x = f \/ In f r))
              \/ (exists plen off, (x = FRefReq plen off \/ In (FRefReq plen off) r) /\ refid_response flt plen off = Some f))
    by (intros H; destruct (IH H) as [[? ?]|(p & o & ? & ?)]; [left|right]; eauto 6).
  destruct x; simpl; auto.
  - intros [<-|H]; [left; eauto|auto].
  - destruct (refid_response flt plen off) eqn:E; [intros [<-|H]; [right; eauto 6|auto]|auto].
Qed.

Lemma refid_response_spec flt plen off f :
  refid_response flt plen off = Some f ->
  f = FRefResp (firstn (Z.to_nat plen) (skipn (Z.to_nat off) flt)) /\ off <= len flt /\ plen <= len flt - off.
Proof.
  unfold refid_response. destruct ((off <=? len flt) && (plen <=? len flt - off)) eqn:E; [|discriminate].
  intros H; inversion H. split; auto. lia.
Qed.

Lemma filter_map_In {A B} (g : A -> option B) l y :
  In y (filter_map g l) -> exists x, In x l /\ g x = Some y.
Proof.
  induction l as [|x r IH]; simpl; [tauto|].
  destruct (g x) eqn:E.
  - intros [H|H]; [subst; eauto|]. destruct (IH H) as [x' [? ?]]. eauto.
  - intros H. destruct (IH H) as [x' [? ?]]. eauto.
Qed.

Lemma fresh_for_spec fresh x y :
  fresh_for fresh x = Some y ->
  y = FCookie fresh /\ ((exists n, x = FCookie n /\ fresh <= n) \/ (exists n, x = FPlaceholder n /\ fresh <= n)).
Proof.
  destruct x; simpl; try discriminate.
  - destruct (fresh >? n) eqn:E; [discriminate|]. intros H; inversion H. split; auto. left. exists n. split; auto. lia.
  - destruct (fresh >? n) eqn:E; [discriminate|]. intros H; inversion H. split; auto. right. exists n. split; auto. lia.
Qed.

(* a fresh cookie of the session's algorithm, handed out for a cookie or placeholder of the request that is
   at least as long *)
Definition fresh_from (alg : Z) (q : request) (f : field) : Prop :=
  f = FCookie (cookie_len alg) /\
  exists x, In x (q_auth q ++ q_enc q) /\
    ((exists n, x = FCookie n /\ cookie_len alg <= n) \/ (exists n, x = FPlaceholder n /\ cookie_len alg <= n)).

Lemma fresh_cookies_In tf alg q f : In f (fresh_cookies tf alg q) -> fresh_from alg q f.
Proof.
  unfold fresh_cookies, fresh_from. destruct tf; intros H.
  - apply firstn_In in H. apply filter_map_In in H. destruct H as [x [HI HG]].
    apply fresh_for_spec in HG. destruct HG. split; auto. eauto.
  - apply filter_map_In in H. destruct H as [x [HI HG]]. apply firstn_In in HI.
    apply fresh_for_spec in HG. destruct HG. split; auto. eauto.
Qed.

(* the fields of any answer: echoed unique identifiers of the request's untrusted or authenticated
   fields (never of its encrypted ones), reference-id responses cut from the server's filter for
   reference-id requests of the request (NTPv5 time answers), the draft identification (NTPv5),
   fresh cookies (encrypted part of NTS time answers); nothing else *)
Definition allowed_field (k : kind) (alg : Z) (st : sstate) (q : request) (f : field) : Prop :=
  ((exists d, f = FUid d) /\ In f (q_untrusted q ++ q_auth q))
  \/ (q_version q = 5 /\ (k = KTime \/ k = KNtsTime) /\
      exists plen off, In (FRefReq plen off) (q_untrusted q ++ q_auth q)
        /\ f = FRefResp (firstn (Z.to_nat plen) (skipn (Z.to_nat off) (s_filter st)))
        /\ off <= len (s_filter st) /\ plen <= len (s_filter st) - off)
  \/ (q_version q = 5 /\ f = draft_field).

Definition is_time_kind (k : kind) : bool := match k with KTime | KNtsTime => true | _ => false end.

(* headers of time answers and of DENY / RATE / NTS-NAK answers, spelled out *)
Definition time_header (k : kind) (st : sstate) (q : request) (recv now : list Z) : list Z :=
  if q_version q =? 5 then
    [leap_bits (s_leap st) * 64 + 5 * 8 + 4; s_stratum st; q_poll q; s_precision st]
    ++ s_rdelay_t32 st ++ s_rdisp_t32 st ++ [0; 0; 0; if s_stratum st <? 16 then 1 else 0]
    ++ zeros 8 ++ q_xmit q ++ recv ++ now
  else
    [leap_bits (s_leap st) * 64 + q_version q * 8 + 4; s_stratum st; q_poll q; s_precision st]
    ++ s_rdelay_short st ++ s_rdisp_short st ++ s_refid st
    ++ (if (q_version q =? 4) && q_upgrade q && (match k with KTime => true | _ => false end)
        then bytes_of_string UPGRADE_TIMESTAMP else truncate_ref recv)
    ++ q_xmit q ++ recv ++ now.

Definition kiss_header (k : kind) (q : request) : list Z :=
  if q_version q =? 5 then
    [5 * 8 + 4; 0;
     match k with KDeny | KNtsDeny => 127 | KRate | KNtsRate => poll_force_inc (q_poll q) | _ => 0 end; 0]
    ++ zeros 4 ++ zeros 4 ++ [0; 0; 0; match k with KNak => 4 | _ => 0 end]
    ++ zeros 8 ++ q_xmit q ++ zeros 8 ++ zeros 8
  else
    [q_version q * 8 + 4; 0; 0; 0] ++ zeros 4 ++ zeros 4
    ++ bytes_of_string (match k with KDeny | KNtsDeny => KISS_DENY | KRate | KNtsRate => KISS_RATE | _ => KISS_NTSN end)
    ++ zeros 8 ++ q_xmit q ++ zeros 8 ++ zeros 8.

(* what the builders copy from a list [l] of request fields: nothing (NTPv3), the unique identifiers (NTPv4),
   these or, in time answers, the NTPv5 filter_map, followed by the draft identification (NTPv5) *)
Definition echoed (k : kind) (st : sstate) (q : request) (l : list field) : list field :=
  if q_version q =? 3 then []
  else if q_version q =? 4 then echo_uid l
  else (if is_time_kind k then echo_v5 (s_filter st) l else echo_uid l) ++ [draft_field].

(* only the NTS time answer carries fresh cookies *)
Definition sent_cookies (tf : bool) (k : kind) (alg : Z) (q : request) : list field :=
  if is_nts_kind k && is_time_kind k then fresh_cookies tf alg q else [].

(* the seven builders as one answer: plain answers echo from the untrusted and authenticated fields in the
   clear, NTS answers from the authenticated ones under the authenticator *)
Definition built (tf : bool) (k : kind) (alg : Z) (st : sstate) (q : request) (recv now : list Z) (mlen : Z) : answer :=
  mk_answer (q_version q)
    (if is_time_kind k then time_header k st q recv now else kiss_header k q)
    (if is_nts_kind k then [] else echoed k st q (q_untrusted q ++ q_auth q))
    (if is_nts_kind k then echoed k st q (q_auth q) else [])
    (sent_cookies tf k alg q)
    (is_nts_kind k)
    (if is_time_kind k then Some mlen else None).

Lemma build_cases tf k alg st q recv now mlen :
  (q_version q = 3 \/ q_version q = 4 \/ q_version q = 5) ->
  build tf k alg st q recv now mlen = Ok (built tf k alg st q recv now mlen)
  \/ (q_version q = 3 /\ (is_nts_kind k = true \/ k = KNak) /\ exists s, build tf k alg st q recv now mlen = Panic s).
Proof.
  intros HV.
  unfold build, built, sent_cookies, echoed, time_header, kiss_header, hdr34_time, hdr34_kiss, hdr5_time, hdr5_kiss, zero8, zero4.
  destruct (q_version q =? 3) eqn:E3; [apply Z.eqb_eq in E3|destruct (q_version q =? 4) eqn:E4; [apply Z.eqb_eq in E4|]].
  - destruct k; cbv zeta; rewrite ?E3; eauto 6.
  - left. rewrite E4. destruct k; try reflexivity; destruct (q_upgrade q); reflexivity.
  - left. assert (E5 : q_version q = 5) by lia. rewrite E5. destruct k; reflexivity.
Qed.

Lemma build_shape tf k alg st q recv now mlen a :
  (q_version q = 3 \/ q_version q = 4 \/ q_version q = 5) ->
  build tf k alg st q recv now mlen = Ok a -> a = built tf k alg st q recv now mlen.
Proof.
  intros HV H. destruct (build_cases tf k alg st q recv now mlen HV) as [E|(_ & _ & s & E)]; congruence.
Qed.

Lemma echoed_In k st q l f :
  In f (echoed k st q l) ->
  ((exists d, f = FUid d) /\ In f l)
  \/ (q_version q <> 3 /\ q_version q <> 4 /\
      (f = draft_field \/
       is_time_kind k = true /\ exists plen off, In (FRefReq plen off) l /\ refid_response (s_filter st) plen off = Some f)).
Proof.
  unfold echoed. destruct (q_version q =? 3) eqn:E3; [intros []|]. destruct (q_version q =? 4) eqn:E4.
  - intros H. left. apply echo_uid_In. exact H.
  - intros H. apply in_app_or in H. destruct H as [H|[<-|[]]]; [|right; repeat split; auto; lia].
    destruct (is_time_kind k); [apply echo_v5_In in H|apply echo_uid_In in H]; [|auto].
    destruct H as [H|H]; [auto|]. right. repeat split; auto; lia.
Qed.

(* the request with other encrypted fields *)
Definition with_enc (q : request) (e : list field) : request :=
  {| q_version := q_version q; q_mode := q_mode q; q_poll := q_poll q; q_xmit := q_xmit q; q_upgrade := q_upgrade q;
     q_untrusted := q_untrusted q; q_auth := q_auth q; q_enc := e; q_mac := q_mac q; q_cookie := q_cookie q;
     q_decrypt_failed := q_decrypt_failed q; q_auths := q_auths q |}.

Lemma decision_ignores_encrypted cfg q e : decision cfg (with_enc q e) = decision cfg q.
Proof. reflexivity. Qed.

(* which kind the decision picks, when, and with which statistics; [c_intended] is 1 (Deny) or 3
   (ProvideTime) in the server, any other value would be answered like ProvideTime, 0 with a NAK *)
Lemma decision_inv cfg q k alg stats :
  decision cfg q = inl (Some (k, alg, stats)) ->
  q_mode q = 3 /\
  match k with
  | KNak => (q_decrypt_failed q = true /\ c_intended cfg <> 1 /\ stats = [q_version q; 1; 2; 0])
            \/ (q_decrypt_failed q = false /\ c_intended cfg = 0)
  | KNtsTime => q_decrypt_failed q = false /\ q_cookie q = Some alg /\ stats = [q_version q; 1; 4; c_intended cfg]
                /\ c_intended cfg <> 1
  | KNtsDeny => q_decrypt_failed q = false /\ q_cookie q = Some alg /\ c_intended cfg = 1
  | KTime => q_decrypt_failed q = false /\ q_cookie q = None /\ c_intended cfg <> 1
  | KDeny => (q_decrypt_failed q = true /\ c_intended cfg = 1)
             \/ (q_decrypt_failed q = false /\ q_cookie q = None /\ (c_intended cfg = 1 \/ c_require_nts cfg = 2))
  | KRate | KNtsRate => False
  end.
Proof.
  unfold decision. cbv zeta. destruct (q_mode q =? 3) eqn:EM; cbn [negb]; [|discriminate].
  destruct (negb (existsb (Z.eqb (q_version q)) (c_accepted cfg))); [discriminate|].
  destruct (q_decrypt_failed q).
  - destruct (c_intended cfg =? 1) eqn:E1; cbn;
      [destruct (c_require_nts cfg =? 1); [discriminate|]; destruct (c_require_nts cfg =? 2); cbn|];
      intros H; inversion H; subst; cbn; intuition (try reflexivity; lia).
  - destruct (c_intended cfg =? 0) eqn:E0, (q_cookie q) as [al|]; cbn; rewrite ?E0; cbn;
      [ | | destruct (c_intended cfg =? 1) eqn:E1
          | destruct (c_require_nts cfg =? 1); [discriminate|];
            destruct (c_require_nts cfg =? 2) eqn:E2; cbn; rewrite ?E0; cbn; [|destruct (c_intended cfg =? 1) eqn:E1] ];
      intros H; inversion H; subst; cbn; intuition (try reflexivity; lia).
Qed.

Lemma decision_decrypt_failed cfg q k alg stats :
  q_decrypt_failed q = true -> decision cfg q = inl (Some (k, alg, stats)) ->
  (k = KNak /\ stats = [q_version q; 1; 2; 0]) \/ (k = KDeny /\ c_intended cfg = 1).
Proof.
  intros HF HD. destruct (decision_inv _ _ _ _ _ HD) as (_ & D). destruct k; intuition congruence.
Qed.

Lemma decision_cases cfg q k alg stats :
  (c_intended cfg = 1 \/ c_intended cfg = 3) ->
  decision cfg q = inl (Some (k, alg, stats)) ->
  match k with
  | KNak => q_decrypt_failed q = true
  | KNtsTime | KNtsDeny => q_decrypt_failed q = false /\ q_cookie q = Some alg
  | KTime => q_decrypt_failed q = false /\ q_cookie q = None
  | KDeny => q_decrypt_failed q = true \/ q_cookie q = None
  | KRate | KNtsRate => False
  end.
Proof.
  intros HI HD. destruct (decision_inv _ _ _ _ _ HD) as (_ & D). destruct k; intuition lia.
Qed.

Definition big_slot (fresh : Z) (f : field) : bool :=
  match f with FCookie n | FPlaceholder n => fresh <=? n | _ => false end.

Lemma filter_map_fresh_len fresh l :
  len (filter_map (fresh_for fresh) l) = len (filter (big_slot fresh) l).
Proof.
  induction l as [|x r IH]; [reflexivity|].
  destruct x; simpl; auto;
    destruct (fresh >? n) eqn:E; destruct (fresh <=? n) eqn:E'; try lia; rewrite ?len_cons, IH; reflexivity.
Qed.

Lemma len_filter_le {A} (p : A -> bool) l : len (filter p l) <= len l.
Proof. induction l as [|x r IH]; simpl; [lia|]. destruct (p x); rewrite ?len_cons; lia. Qed.

Lemma len_filter_firstn_le {A} (p : A -> bool) n l : len (filter p (firstn n l)) <= len (filter p l).
Proof.
  revert l. induction n; intros l; simpl; [apply len_nonneg|].
  destruct l as [|x r]; simpl; [lia|]. specialize (IHn r). destruct (p x); rewrite ?len_cons; lia.
Qed.

Lemma len_firstn_le {A} n (l : list A) : len (firstn n l) <= Z.of_nat n /\ len (firstn n l) <= len l.
Proof. unfold len. pose proof (firstn_le_length n l). rewrite firstn_length. lia. Qed.

Lemma fresh_cookies_bounds tf alg q :
  len (fresh_cookies tf alg q) <= RESP_MAX_COOKIES
  /\ len (fresh_cookies tf alg q) <= len (filter (big_slot (cookie_len alg)) (q_auth q ++ q_enc q))
  /\ Forall (fun f => f = FCookie (cookie_len alg)) (fresh_cookies tf alg q).
Proof.
  split; [|split].
  - unfold fresh_cookies. destruct tf.
    + pose proof (len_firstn_le (Z.to_nat RESP_MAX_COOKIES) (filter_map (fresh_for (cookie_len alg)) (q_auth q ++ q_enc q))).
      consts. lia.
    + rewrite filter_map_fresh_len.
      pose proof (len_filter_le (big_slot (cookie_len alg)) (firstn (Z.to_nat RESP_MAX_COOKIES) (q_auth q ++ q_enc q))).
      pose proof (len_firstn_le (Z.to_nat RESP_MAX_COOKIES) (q_auth q ++ q_enc q)). consts. lia.
  - unfold fresh_cookies. destruct tf.
    + pose proof (len_firstn_le (Z.to_nat RESP_MAX_COOKIES) (filter_map (fresh_for (cookie_len alg)) (q_auth q ++ q_enc q))).
      rewrite filter_map_fresh_len in H. lia.
    + rewrite filter_map_fresh_len. apply len_filter_firstn_le.
  - apply Forall_forall. intros f HF. apply fresh_cookies_In in HF. apply HF.
Qed.

(* cookies: encode / decode under the server's key set, the AEAD as section variables *)
Section Cookies.
  Variables key nonce : Type.
  Variable enc : key -> nonce -> list Z -> list Z.
  Variable dec : key -> nonce -> list Z -> option (list Z).

  Record keyset : Type := { ks_keys : list key; ks_offset : Z; ks_primary : Z }.
  (* cookie on the wire: key id, nonce, ciphertext; its plaintext: algorithm, s2c key, c2s key *)
  Definition cookie_plain (alg : Z) (s2c c2s : list Z) : list Z := be16 alg ++ s2c ++ c2s.
  Definition encode_cookie (ks : keyset) (n : nonce) (alg : Z) (s2c c2s : list Z) : res (Z * nonce * list Z) :=
    match nth_error (ks_keys ks) (Z.to_nat (ks_primary ks)) with
    | Some k => Ok (wrap 32 (ks_primary ks + ks_offset ks), n, enc k n (cookie_plain alg s2c c2s))
    | None => Panic 6              (* keys[primary] out of range *)
    end.
  Definition decode_cookie (ks : keyset) (c : Z * nonce * list Z) : option (list Z) :=
    match c with
    | (id, n, ct) =>
        match nth_error (ks_keys ks) (Z.to_nat (wrap 32 (id - ks_offset ks))) with
        | Some k => dec k n ct
        | None => None
        end
    end.
End Cookies.

Definition auth_present (a : answer) : bool := negb (is_nil (a_auth a)) || negb (is_nil (a_enc a)).
Definition raw_size (a : answer) : Z :=
  len (a_header a)
  + (if auth_present a
     then esz_list min_auth (a_auth a) + 8 + next4 NONCE_LEN_256 + next4 (esz_list min_enc (a_enc a) + 16)
     else 0)
  + esz_list (min_untrusted (a_ver a =? 5)) (a_untrusted a).

Lemma Forall_encodable_np l : Forall encodable l -> Forall not_padding l.
Proof. apply Forall_impl. exact encodable_not_padding. Qed.

Lemma unpadded_ok a :
  Forall encodable (a_untrusted a) -> Forall encodable (a_auth a) -> Forall encodable (a_enc a) ->
  (auth_present a = true -> a_cipher a = true) ->
  exists w0, unpadded a = Ok w0 /\ wire_len w0 = raw_size a.
Proof.
  intros FU FA FE HC.
  destruct (encode_fields_ok (a_ver a =? 5) min_auth _ FA) as [ab Eab].
  destruct (encode_fields_ok (a_ver a =? 5) min_enc _ FE) as [pb Epb].
  destruct (encode_fields_ok (a_ver a =? 5) (min_untrusted (a_ver a =? 5)) _ FU) as [ub Eub].
  pose proof (encode_fields_len _ _ _ _ (Forall_encodable_np _ FA) Eab) as Lab.
  pose proof (encode_fields_len _ _ _ _ (Forall_encodable_np _ FE) Epb) as Lpb.
  pose proof (encode_fields_len _ _ _ _ (Forall_encodable_np _ FU) Eub) as Lub.
  unfold unpadded, raw_size, auth_present in *. cbv zeta. rewrite Eub.
  destruct (negb (is_nil (a_auth a)) || negb (is_nil (a_enc a))).
  - rewrite (HC eq_refl), Eab, Epb. cbn [negb res_bind]. eexists. split; [reflexivity|].
    unfold wire_len. cbn [w_prefix w_auth w_suffix wauth_len fst snd]. rewrite len_app, Lab, Lpb. lia.
  - cbn [res_bind]. eexists. split; [reflexivity|].
    unfold wire_len. cbn [w_prefix w_auth w_suffix wauth_len fst snd]. rewrite len_app, len_nil. lia.
Qed.

Lemma serialize_ok a B :
  a_ver a <> 3 ->
  Forall encodable (a_untrusted a) -> Forall encodable (a_auth a) -> Forall encodable (a_enc a) ->
  (auth_present a = true -> a_cipher a = true) ->
  raw_size a <= B ->
  ((a_ver a =? 5) = true -> forall d, a_desired a = Some d ->
     d = B /\ B mod 4 = 0 /\ raw_size a mod 4 = 0 /\ 0 <= raw_size a /\ B <= 65535) ->
  exists w, serialize a B = Ok w.
Proof.
  intros V FU FA FE HC HR HP. destruct (unpadded_ok a FU FA FE HC) as (w0 & U & L).
  rewrite (serialize_unpadded a B V), U. cbn [res_bind]. unfold padded.
  assert (NP : exists w, (if wire_len w0 <=? B then Ok w0 else Err 3) = Ok w)
    by (destruct (wire_len w0 <=? B) eqn:LE; [eauto|lia]).
  destruct (a_ver a =? 5); [|exact NP]. destruct (a_desired a) as [d|]; [|exact NP].
  destruct (HP eq_refl d eq_refl) as (-> & HB4 & HR4 & HR0 & HB).
  destruct (B >? wire_len w0) eqn:G; [|exact NP].
  destruct (padding_ok (B - wire_len w0)) as [p Ep]; [lia|]. rewrite Ep. cbn [res_bind].
  apply padding_len in Ep; [|change (2 ^ 64) with 18446744073709551616; lia|lia].
  match goal with |- context [wire_len ?W <=? B] => assert (wire_len W = B) as -> end.
  { unfold wire_len in *. cbn [w_prefix w_auth w_suffix]. rewrite len_app. lia. }
  rewrite Z.leb_refl. eauto.
Qed.
