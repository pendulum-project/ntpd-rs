(* Lemmas about the f64 part of Model/Controller.v (C02): f64::clamp and f64::min on Coq's primitive
   binary64 floats, from the order facts of Proofs/F64Clamp.v (f_is_nan is F64Clamp.fnan), and the
   structural fact that every set_frequency argument of every history is a clamp output. *)
From V Require Import Model.Controller Proofs.Controller Proofs.F64Clamp.
From Coq Require Import Floats.
From Flocq Require Import IEEE754.BinarySingleNaN IEEE754.PrimFloat.
Open Scope Z_scope.

(* the bridge to Flocq: f_is_nan is is_nan of the binary float *)
Lemma f_is_nan_Prim2B : forall x, f_is_nan x = is_nan (Prim2B x).
Proof. exact fnan_is_nan. Qed.

(* Model.Controller.f_clamp and Model.FloatBits.f64_clamp are two copies of f64::clamp that differ in
   the panic site only *)
Lemma f_clamp_core : forall x lo hi,
  f_clamp x lo hi =
  if PrimFloat.leb lo hi then Ok (FloatBits.clamp_core x lo hi) else Panic site_clamp.
Proof. reflexivity. Qed.

(* its assert fails exactly when not (lo <= hi) *)
Lemma clamp_panic_iff : forall x lo hi,
  (exists p, f_clamp x lo hi = Panic p) <-> PrimFloat.leb lo hi = false.
Proof.
  intros. rewrite f_clamp_core. destruct (PrimFloat.leb lo hi); split; intro H.
  - destruct H; discriminate.
  - discriminate.
  - reflexivity.
  - eexists; reflexivity.
Qed.

(* where the assert holds NaN goes to NaN and everything else lands in [lo, hi] (hardware order) *)
Lemma clamp_range : forall x lo hi r,
  f_clamp x lo hi = Ok r ->
  (f_is_nan x = true /\ f_is_nan r = true) \/
  (f_is_nan x = false /\ PrimFloat.leb lo r = true /\ PrimFloat.leb r hi = true).
Proof.
  intros x lo hi r H. rewrite f_clamp_core in H.
  destruct (PrimFloat.leb lo hi) eqn:L; [| discriminate]. injection H as <-.
  destruct (clamp_core_in_range x lo hi L) as [A B].
  destruct (f_is_nan x) eqn:N; [left; split; [reflexivity | exact (A N)] | right].
  destruct (B N) as (_ & H1 & H2). auto.
Qed.

(* f64::min with a non-NaN bound never exceeds the bound *)
Lemma min_bound : forall s q, f_is_nan s = false -> PrimFloat.leb (f_min s q) s = true.
Proof.
  intros s q Hs. unfold f_min. rewrite Hs.
  destruct (f_is_nan q) eqn:Hq; [apply leb_refl; auto |].
  destruct (PrimFloat.ltb s q) eqn:L; [apply leb_refl; auto |].
  apply ltb_false_leb; auto.
Qed.

Definition clamped (c : cfg) (f : PrimFloat.float) : Prop :=
  exists x, f_clamp x (PrimFloat.opp (c_max_freq c)) (c_max_freq c) = Ok f.

(* NaN, or inside [-M, M] in the hardware order *)
Definition freq_in_range (c : cfg) (f : PrimFloat.float) : Prop :=
  f_is_nan f = true \/
  (PrimFloat.leb (PrimFloat.opp (c_max_freq c)) f = true /\ PrimFloat.leb f (c_max_freq c) = true).

Lemma clamped_in_range : forall c f, clamped c f -> freq_in_range c f.
Proof.
  intros c f [x H]. destruct (clamp_range _ _ _ _ H) as [[_ N] | (_ & A & B)].
  - left; auto.
  - right; auto.
Qed.

(* the frequency state after an operation: untouched, or the clamp output just applied *)
Definition freq_effect (c : cfg) (s : st) (cs : list call) (r : res st) : Prop :=
  Forall (clamped c) (freqs_of cs) /\
  (forall s', r = Ok s' ->
     (freqs_of cs = [] /\ freq_offset s' = freq_offset s) \/
     (exists f, freqs_of cs = [f] /\ freq_offset s' = f)).

Lemma step_freq : forall ar c s o cs r, step ar c s o = (cs, r) -> freq_effect c s cs r.
Proof.
  intros ar c s o cs r H. apply step_shape in H. unfold freq_effect.
  inversion H as [r0 N Es Ef Er | s' A Es Ef Er | ch s1 s' Hc A Es Ef Er | d x nf s' HR Hx A Es Ef Er];
    subst.
  - split; [constructor | intros s' E; destruct (N s' E)].
  - split; [constructor |]. intros ? [= <-]. left. split; [reflexivity | apply A].
  - split; [constructor |]. intros ? [= <-]. left. split; [reflexivity | apply A].
  - split; [repeat constructor; eexists; exact Hx |].
    intros ? [= <-]. right. exists nf. split; [reflexivity | apply A].
Qed.

(* all set_frequency arguments of a history *)
Lemma run_freqs_in_range : forall ar c ops s,
  Forall (freq_in_range c) (freqs_of (fst (run ar c s ops))).
Proof.
  intros ar c ops s. apply (run_freqs_forall ar c (fun _ => True)); [| exact I].
  intros s0 o cs r _ _ E. apply step_freq in E. split; [| auto].
  eapply Forall_impl; [apply clamped_in_range | apply E].
Qed.

(* the state variable freq_offset is the kernel's value until the first set_frequency and a clamp
   output from then on *)
Lemma run_freq_offset : forall ar c ops s s',
  snd (run ar c s ops) = Ok s' ->
  (freqs_of (fst (run ar c s ops)) = [] /\ freq_offset s' = freq_offset s) \/
  (freqs_of (fst (run ar c s ops)) <> [] /\ clamped c (freq_offset s')).
Proof.
  induction ops as [| o r IH]; intros s s' H.
  - cbn in *. inversion H; subst. left; auto.
  - cbn [run] in *. unfold Controller.seq in *.
    destruct (step ar c s o) as [cs rr] eqn:E. apply step_freq in E. destruct E as [F1 F2].
    destruct rr as [s1 | e | p]; cbn [snd] in H; try discriminate.
    specialize (IH s1). destruct (run ar c s1 r) as [cs2 r2]. cbn [fst snd] in *.
    unfold freqs_of in *. rewrite flat_map_app.
    destruct (IH s' H) as [[A B] | [A B]].
    + rewrite A, app_nil_r.
      destruct (F2 s1 eq_refl) as [[C D] | (f & C & D)].
      * left. split; auto. congruence.
      * right. rewrite C. split; [discriminate |]. rewrite B, D.
        rewrite C in F1. inversion F1; auto.
    + right. split; auto. intro N. apply app_eq_nil in N. tauto.
Qed.

(* Duration::from_secs_f64 panics on |NaN| / freq *)
Lemma duration_ok_nonnan : forall ch fr u,
  duration_check (PrimFloat.div (PrimFloat.abs ch) fr) = Ok u -> f_is_nan ch = false.
Proof.
  intros ch fr u D. destruct (f_is_nan ch) eqn:N; auto. exfalso.
  assert (Nq : f_is_nan (PrimFloat.div (PrimFloat.abs ch) fr) = true).
  { rewrite f_is_nan_Prim2B, div_equiv, abs_equiv. rewrite f_is_nan_Prim2B in N.
    destruct (Prim2B ch); try discriminate. reflexivity. }
  unfold duration_check in D. rewrite !(ltb_nan_l _ _ Nq) in D. discriminate.
Qed.

(* a started slew sets desired_freq to -slew_freq * signum(change), and is started only for a change
   that is a number *)
Lemma slew_started : forall ar c s ch fd cs s',
  PrimFloat.ltb (c_step_threshold c) (PrimFloat.abs ch) = false ->
  steer_offset ar c s ch fd = (cs, Ok s') ->
  desired_freq s' = PrimFloat.mul (PrimFloat.opp (slew_freq c ch)) (f_signum ch) /\
  f_is_nan ch = false.
Proof.
  intros ar c s ch fd cs s' Hlt H.
  destruct (steer_offset_slew _ _ _ _ _ _ _ Hlt H) as (x & _ & [u D] & E & _).
  split; [exact E | exact (duration_ok_nonnan _ _ _ D)].
Qed.
