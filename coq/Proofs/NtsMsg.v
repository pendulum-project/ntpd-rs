(* Lemmas about the message model (Model/NtsMsg.v): the record loop, the
   4096-byte cap, totality, round trips with the length bound. *)
From V Require Import Model.NtsMsg Proofs.Common Proofs.NtsRecord Gen.ConstNts.

Section Loop.
Context {St : Type} (step : St -> record -> step_result St).

Lemma loop_suffix f : forall st inp x rest,
  msg_loop step f st inp = (x, rest) -> exists c, inp = c ++ rest.
Proof.
  induction f as [|f IH]; intros st inp x rest H; cbn [msg_loop] in H.
  - inversion H. exists []. reflexivity.
  - destruct (parse_record inp) as [[r|e|s] rest0] eqn:P;
      destruct (parse_record_suffix _ _ _ P) as [c0 D0].
    + destruct (step st r) as [st'| |e].
      * destruct (IH _ _ _ _ H) as [c1 D1]. exists (c0 ++ c1). rewrite <- app_assoc, <- D1. exact D0.
      * inversion H. exists c0. congruence.
      * inversion H. exists c0. congruence.
    + inversion H. exists c0. congruence.
    + inversion H. exists c0. congruence.
Qed.

Lemma parse_ok_shrinks inp r rest :
  parse_record inp = (Ok r, rest) -> (length rest + 4 <= length inp)%nat.
Proof.
  intros P. destruct (parse_record_ok _ _ _ P) as [_ [c [D L]]].
  rewrite zlen_ser_record in L. pose proof (zlen_nonneg (rec_body r)).
  subst inp. rewrite app_length. unfold zlen in *. lia.
Qed.

(* enough fuel: the loop never reports fuel exhaustion, nor any panic *)
Lemma loop_no_panic f : forall st inp s,
  (length inp < f)%nat -> fst (msg_loop step f st inp) <> Panic s.
Proof.
  induction f as [|f IH]; intros st inp s L; [lia|]. cbn [msg_loop].
  destruct (parse_record inp) as [[r|e|s'] rest0] eqn:P.
  - destruct (step st r) as [st'| |e]; try discriminate.
    apply IH. pose proof (parse_ok_shrinks _ _ _ P). lia.
  - discriminate.
  - exfalso. apply (parse_record_total inp s'). rewrite P. reflexivity.
Qed.

Lemma loop_mono f : forall st inp x rest f',
  msg_loop step f st inp = (x, rest) -> x <> Panic panic_fuel -> (f <= f')%nat ->
  msg_loop step f' st inp = (x, rest).
Proof.
  induction f as [|f IH]; intros st inp x rest f' H NP L; cbn [msg_loop] in H.
  - inversion H. subst. congruence.
  - destruct f' as [|f']; [lia|]. cbn [msg_loop].
    destruct (parse_record inp) as [[r|e|s] rest0]; [|exact H|exact H].
    destruct (step st r) as [st'| |e]; [|exact H|exact H].
    apply IH; [exact H|exact NP|lia].
Qed.

(* a run with some fuel determines the run with the parser's fuel *)
Lemma loop_det f st inp x rest F :
  msg_loop step f st inp = (x, rest) -> x <> Panic panic_fuel -> (length inp < F)%nat ->
  msg_loop step F st inp = (x, rest).
Proof.
  intros H NP L. destruct (Nat.le_gt_cases f F) as [Le|Gt].
  - apply (loop_mono f); assumption.
  - destruct (msg_loop step F st inp) as [y rest'] eqn:E.
    assert (NPy : y <> Panic panic_fuel).
    { pose proof (loop_no_panic F st inp panic_fuel L) as Q. rewrite E in Q. exact Q. }
    pose proof (loop_mono F st inp y rest' f E NPy ltac:(lia)) as E'. congruence.
Qed.

Lemma loop_cons f st r t :
  wf_record r ->
  msg_loop step (S f) st (ser_record r ++ t) =
  match step st r with
  | Continue st' => msg_loop step f st' t
  | Break => (Ok st, t)
  | Stop e => (Err e, t)
  end.
Proof. intros W. cbn [msg_loop]. rewrite (record_roundtrip r t W). reflexivity. Qed.

Lemma loop_inv (P : St -> Prop) :
  (forall st r st', P st -> wf_record r -> step st r = Continue st' -> P st') ->
  forall f st inp st' rest, P st -> msg_loop step f st inp = (Ok st', rest) -> P st'.
Proof.
  intros HP. induction f as [|f IH]; intros st inp st' rest P0 H; cbn [msg_loop] in H; [discriminate|].
  destruct (parse_record inp) as [[r|e|s] rest0] eqn:E; try discriminate.
  destruct (step st r) as [st1| |e] eqn:S1; try discriminate.
  - apply (IH st1 rest0 st' rest); [|exact H]. apply (HP st r st1 P0); [|exact S1].
    apply (parse_record_ok _ _ _ E).
  - inversion H. subst. exact P0.
Qed.

(* the accumulated state is paid for by the bytes consumed *)
Lemma loop_size (size : St -> Z) :
  (forall st r st', step st r = Continue st' -> size st' <= size st + zlen (ser_record r)) ->
  forall f st inp st' rest,
    msg_loop step f st inp = (Ok st', rest) ->
    size st' + 4 <= size st + (zlen inp - zlen rest).
Proof.
  intros HS. induction f as [|f IH]; intros st inp st' rest H; cbn [msg_loop] in H; [discriminate|].
  destruct (parse_record inp) as [[r|e|s] rest0] eqn:E; try discriminate.
  destruct (parse_record_ok _ _ _ E) as [_ [c [D L]]].
  assert (Z0 : zlen inp = zlen c + zlen rest0) by (subst inp; apply zlen_app).
  destruct (step st r) as [st1| |e] eqn:S1; try discriminate.
  - pose proof (IH _ _ _ _ H). pose proof (HS _ _ _ S1). lia.
  - inversion H. subst. rewrite zlen_ser_record in L. pose proof (zlen_nonneg (rec_body r)). lia.
Qed.

End Loop.

Section Cap.
Context {A : Type} (raw : list Z -> res A * list Z).

Lemma cap_value : Z.of_nat cap = MAX_MESSAGE_SIZE.
Proof. reflexivity. Qed.

(* In the proofs of this section [cap] is first replaced by a variable [n] with
   [Z.of_nat n = MAX_MESSAGE_SIZE]: unification and conversion are apt to expand
   the constant into 4096 successors. *)
Local Ltac abstract_cap := unfold capped; generalize cap_value; generalize cap.

Lemma capped_unfold b :
  capped raw b = (fst (raw (firstn cap b)), snd (raw (firstn cap b)) ++ skipn cap b).
Proof. abstract_cap. intros n _. destruct (raw (firstn n b)). reflexivity. Qed.

Lemma capped_total :
  (forall inp s, fst (raw inp) <> Panic s) -> forall b s, fst (capped raw b) <> Panic s.
Proof. intros HT b s. rewrite capped_unfold. apply HT. Qed.

(* the parser behaves as on the first 4096 bytes *)
Lemma capped_prefix b :
  fst (capped raw b) = fst (capped raw (firstn cap b)) /\
  snd (capped raw b) = snd (capped raw (firstn cap b)) ++ skipn cap b.
Proof.
  abstract_cap. intros n _. rewrite firstn_firstn, Nat.min_id.
  rewrite (skipn_all2 (firstn n b)) by apply firstn_le_length.
  destruct (raw (firstn n b)). cbn [fst snd]. rewrite app_nil_r. split; reflexivity.
Qed.

Lemma capped_bounded :
  (forall inp x rest, raw inp = (x, rest) -> exists c, inp = c ++ rest) ->
  forall b x rest, capped raw b = (x, rest) ->
  exists c, b = c ++ rest /\ zlen c <= MAX_MESSAGE_SIZE.
Proof.
  intros HS b x rest. abstract_cap. intros n Hn.
  destruct (raw (firstn n b)) as [y wrest] eqn:E. intros [= <- <-].
  destruct (HS _ _ _ E) as [c D]. exists c. split.
  - rewrite app_assoc, <- D. symmetry. apply firstn_skipn.
  - apply (f_equal (@length Z)) in D. rewrite app_length in D.
    pose proof (firstn_le_length n b). unfold zlen. lia.
Qed.

(* a value paid for by the bytes consumed fits the cap *)
Lemma capped_ok (W : A -> Prop) (ser : A -> list Z) :
  (forall inp v rest, raw inp = (Ok v, rest) -> W v /\ zlen (ser v) <= zlen inp - zlen rest) ->
  forall b v rest, capped raw b = (Ok v, rest) -> W v /\ zlen (ser v) <= MAX_MESSAGE_SIZE.
Proof.
  intros HO b v rest. abstract_cap. intros n Hn.
  destruct (raw (firstn n b)) as [y wrest] eqn:E. intros [= -> _].
  destruct (HO _ _ _ E) as [Wv L]. split; [exact Wv|].
  pose proof (firstn_le_length n b). pose proof (zlen_nonneg wrest). unfold zlen in *. lia.
Qed.

Lemma capped_roundtrip ser v :
  (forall t, raw (ser ++ t) = (Ok v, t)) -> zlen ser <= MAX_MESSAGE_SIZE ->
  forall t, capped raw (ser ++ t) = (Ok v, t).
Proof.
  intros HR. abstract_cap. intros n Hn L t.
  assert (Ln : (length ser <= n)%nat) by (unfold zlen in L; lia).
  rewrite firstn_app, (firstn_all2 ser Ln), HR.
  rewrite skipn_app, (skipn_all2 ser Ln). cbn [app]. rewrite firstn_skipn. reflexivity.
Qed.

End Cap.

Section Parser.
Context {St V : Type} (step : St -> record -> step_result St) (init : St) (finish : St -> res V).

(* [parse_request_raw] and [parse_response_raw] are this, at their own step,
   initial state and final check *)
Definition loop_parser (inp : list Z) : res V * list Z :=
  let '(x, rest) := msg_loop step (S (length inp)) init inp in (res_bind x finish, rest).

Lemma loop_parser_inv inp y rest :
  loop_parser inp = (y, rest) ->
  exists x, msg_loop step (S (length inp)) init inp = (x, rest) /\ res_bind x finish = y.
Proof. unfold loop_parser. destruct (msg_loop _ _ _ _) as [x r0]. intros [= <- <-]. eauto. Qed.

Lemma loop_parser_suffix inp y rest : loop_parser inp = (y, rest) -> exists c, inp = c ++ rest.
Proof. intros H. destruct (loop_parser_inv _ _ _ H) as [x [E _]]. exact (loop_suffix _ _ _ _ _ _ E). Qed.

Lemma loop_parser_total :
  (forall st s, finish st <> Panic s) -> forall inp s, fst (loop_parser inp) <> Panic s.
Proof.
  intros HF inp. unfold loop_parser.
  pose proof (loop_no_panic step (S (length inp)) init inp) as NP.
  destruct (msg_loop step (S (length inp)) init inp) as [x rest]. cbn [fst] in *.
  apply np_bind; [intros s; apply NP; lia|intros st _ s; apply HF].
Qed.

(* [P] an invariant of the state, [size] what the state will cost to serialise:
   an accepted value is well formed and not longer than what was consumed *)
Lemma loop_parser_ok (P : St -> Prop) (size : St -> Z) (W : V -> Prop) (ser : V -> list Z) :
  P init -> size init = 0 ->
  (forall st r st', P st -> wf_record r -> step st r = Continue st' -> P st') ->
  (forall st r st', step st r = Continue st' -> size st' <= size st + zlen (ser_record r)) ->
  (forall st v, P st -> finish st = Ok v -> W v /\ zlen (ser v) <= size st + 4) ->
  forall inp v rest, loop_parser inp = (Ok v, rest) -> W v /\ zlen (ser v) <= zlen inp - zlen rest.
Proof.
  intros P0 S0 HP HS HF inp v rest H.
  destruct (loop_parser_inv _ _ _ H) as [x [E F]]. destruct (bind_ok _ _ _ F) as [st [-> F']].
  pose proof (loop_size step size HS _ _ _ _ _ E) as SZ.
  destruct (HF st v (loop_inv step P HP _ _ _ _ _ P0 E) F') as [Wv L]. split; [exact Wv|lia].
Qed.

(* a run of the loop on [s ++ t], with whatever fuel, decides the parser on it *)
Lemma loop_parser_roundtrip s t f st v :
  msg_loop step f init (s ++ t) = (Ok st, t) -> finish st = Ok v -> loop_parser (s ++ t) = (Ok v, t).
Proof.
  intros E F. unfold loop_parser.
  rewrite (loop_det step f init _ (Ok st) t (S (length (s ++ t))) E) by (discriminate || lia).
  cbn [res_bind]. rewrite F. reflexivity.
Qed.

End Parser.

Definition utf8_ok (s : list Z) : Prop := utf8_valid s = true.

Definition wf_request (q : request) : Prop :=
  match q with
  | KeyExchange _ _ denied => Forall utf8_ok denied
  | FixedKey a c2s s2c alg _ _ =>
    utf8_ok a /\ exists k, key_size_of alg = Some k /\ zlen c2s = k /\ zlen s2c = k
  | Support a wp wa _ => utf8_ok a /\ wa || wp = true
  end.

Definition ser_deny (d : list Z) : list Z := ser_record (NtpServerDenyR d).

(* the four bytes of a record with an empty body, when the flag asks for one *)
Definition b4 (b : bool) : Z := if b then 4 else 0.
(* what the request accumulated in the state will take to serialise, without the end record *)
Definition rsize (st : rstate) : Z :=
  (match r_protocols st with Some l => 4 + 2 * zlen l | None => 0 end)
  + (match r_algorithms st with Some l => 4 + 2 * zlen l | None => 0 end)
  + (match r_auth st with Some a => 4 + zlen a | None => 0 end)
  + zlen (flat_map ser_deny (r_denied st))
  + b4 (r_wp st) + b4 (r_wa st) + b4 (r_ka st)
  + (match r_keys st with Some (a, b) => 4 + zlen a + zlen b | None => 0 end).

(* the strings accumulated in the state are valid UTF-8 *)
Definition rwf (st : rstate) : Prop :=
  (forall a, r_auth st = Some a -> utf8_ok a) /\ Forall utf8_ok (r_denied st).

(* case split on the test at the head of [H]; when the test is [is_some o], on [o] itself *)
Ltac destr_test H :=
  lazymatch type of H with
  | (if is_some ?o then _ else _) = _ => destruct o; cbn [is_some] in H
  | (if ?c then _ else _) = _ => destruct c eqn:?
  end.

(* Lengths of serialisations as sums of the lengths of their variable parts.  The first
   pass leaves [zlen (rec_body (C ..))] for each record written; that reduces to the length
   of a concrete body, which the second pass turns into a sum again. *)
Ltac zlen_sums := autorewrite with zlen; cbn [rec_body flat_map app]; autorewrite with zlen.

Lemma b4_range b : 0 <= b4 b <= 4.
Proof. destruct b; cbn; lia. Qed.

Lemma req_step_size st r st' :
  req_step st r = Continue st' -> rsize st' <= rsize st + zlen (ser_record r).
Proof.
  intros H. rewrite zlen_ser_record. pose proof (zlen_nonneg (rec_body r)) as NN.
  destruct st as [p a au dn wp wa ka ks].
  pose proof (b4_range wp). pose proof (b4_range wa). pose proof (b4_range ka).
  destruct r; cbn [req_step r_protocols r_algorithms r_auth r_denied r_wp r_wa r_ka r_keys] in H;
    try destruct critical; try destr_test H; try discriminate;
    injection H as <-; unfold rsize, ser_deny;
    cbn [r_protocols r_algorithms r_auth r_denied r_wp r_wa r_ka r_keys rec_body b4] in NN |- *;
    rewrite ?flat_map_app; cbn [flat_map app]; autorewrite with zlen in NN |- *; cbn [rec_body]; lia.
Qed.

Lemma req_step_wf st r st' :
  rwf st -> wf_record r -> req_step st r = Continue st' -> rwf st'.
Proof.
  intros [Wa Wd] W H. destruct st as [p a au dn wp wa ka ks].
  destruct r; cbn [req_step r_protocols r_algorithms r_auth r_denied r_wp r_wa r_ka r_keys is_some] in H;
    try destruct critical; try destr_test H; try discriminate; inversion H; subst; clear H;
    unfold rwf; cbn [r_auth r_denied] in *; (split; [|]); try assumption.
  - apply Forall_app. split; [exact Wd|]. constructor; [exact W|constructor].
  - intros a0 E. inversion E. subst. exact W.
Qed.

Lemma rwf_init : rwf rinit.
Proof. split; [discriminate|constructor]. Qed.

Lemma zlen_one {A} (x : A) l : zlen (x :: l) =? 1 = true -> l = [].
Proof. destruct l; [reflexivity|]. rewrite !zlen_cons. pose proof (zlen_nonneg l). lia. Qed.

Lemma req_finish_ok st q :
  rwf st -> req_finish st = Ok q ->
  wf_request q /\ zlen (ser_request q) <= rsize st + 4.
Proof.
  intros [Wa Wd] H. destruct st as [p a au dn wp wa ka ks].
  pose proof (b4_range wp). pose proof (b4_range wa). pose proof (b4_range ka).
  unfold req_finish in H. unfold rsize, ser_deny.
  cbn [r_protocols r_algorithms r_auth r_denied r_wp r_wa r_ka r_keys] in *.
  pose proof (zlen_nonneg (flat_map (fun d => ser_record (NtpServerDenyR d)) dn)).
  destruct (wa || wp) eqn:Wants.
  - destruct au as [s|]; [|discriminate]. destruct ks; [discriminate|].
    destruct p; [discriminate|]. destruct a; [discriminate|]. injection H as <-.
    split; [split; [apply Wa; reflexivity|exact Wants]|]. cbn [ser_request].
    zlen_sums. destruct wp, wa, ka; cbn [b4]; zlen_sums; lia.
  - destruct ks as [[c2s s2c]|].
    + destruct au as [s|]; [|discriminate]. destruct p as [ps|]; [|discriminate].
      destruct a as [als|]; [|discriminate].
      destruct (zlen ps =? 1) eqn:Lp; [|discriminate]. destruct (zlen als =? 1) eqn:La; [|discriminate].
      cbn [negb orb] in H. destruct als as [|alg als']; [discriminate|].
      destruct (key_size_of alg) as [k|] eqn:K; [|discriminate].
      destruct ((zlen c2s =? k) && (zlen s2c =? k)) eqn:Ks; [|discriminate].
      destruct ps as [|pr ps']; [discriminate|]. injection H as <-.
      apply zlen_one in Lp. apply zlen_one in La. subst.
      apply andb_prop in Ks. destruct Ks as [K1 K2].
      split; [split; [apply Wa; reflexivity|]; exists k; repeat split; [exact K|lia|lia]|]. cbn [ser_request].
      zlen_sums. destruct ka; cbn [b4]; zlen_sums; lia.
    + destruct p as [ps|]; [|discriminate]. destruct a as [als|]; [|discriminate].
      injection H as <-. split; [exact Wd|]. cbn [ser_request].
      zlen_sums. destruct au as [s|]; [pose proof (zlen_nonneg s)|]; lia.
Qed.

Lemma req_finish_total st s : req_finish st <> Panic s.
Proof.
  destruct st as [p a au dn wp wa ka ks]. unfold req_finish.
  cbn [r_protocols r_algorithms r_auth r_denied r_wp r_wa r_ka r_keys].
  destruct (wa || wp).
  - destruct au, ks, p, a; discriminate.
  - destruct ks as [[c2s s2c]|].
    + destruct au; [|discriminate]. destruct p as [ps|]; [|discriminate]. destruct a as [als|]; [|discriminate].
      destruct (negb (zlen ps =? 1) || negb (zlen als =? 1)) eqn:G; [discriminate|].
      apply orb_false_elim in G. destruct G as [G1 G2].
      destruct als as [|alg als']; [discriminate G2|].
      destruct (key_size_of alg) as [k|]; [|discriminate].
      destruct ((zlen c2s =? k) && (zlen s2c =? k)); [|discriminate].
      destruct ps as [|pr ps']; [discriminate G1|discriminate].
    + destruct p, a; discriminate.
Qed.

(* Symbolic execution of the loop while a serialised record is in front of the
   input: [loop_cons], then the step function on the constructors in sight. *)
Ltac run_loop :=
  repeat (rewrite loop_cons by (exact I || assumption);
          cbn [req_step rinit r_protocols r_algorithms r_auth r_denied r_wp r_wa r_ka r_keys
               resp_step pinit s_protocol s_algorithm s_cookies s_server s_port s_ka is_some]).

(* the denied-server records of a key-exchange request *)
Lemma loop_denied ds : forall p a au dn wp wa ka ks f t,
  Forall utf8_ok ds ->
  msg_loop req_step (length ds + f) (mkR p a au dn wp wa ka ks) (flat_map ser_deny ds ++ t) =
  msg_loop req_step f (mkR p a au (dn ++ ds) wp wa ka ks) t.
Proof.
  induction ds as [|d ds IH]; intros p a au dn wp wa ka ks f t W.
  - cbn [flat_map length app Nat.add]. rewrite app_nil_r. reflexivity.
  - inversion W. subst. cbn [flat_map length Nat.add]. rewrite <- app_assoc. unfold ser_deny at 1.
    run_loop. rewrite IH by assumption. rewrite <- app_assoc. reflexivity.
Qed.

Lemma request_roundtrip_raw q t :
  wf_request q -> parse_request_raw (ser_request q ++ t) = (Ok q, t).
Proof.
  intros W. change parse_request_raw with (loop_parser req_step rinit req_finish).
  destruct q as [als ps denied | a c2s s2c alg p ka | a wp wa ka]; cbn [wf_request] in W.
  - eapply (loop_parser_roundtrip _ _ _ _ _ (S (S (length denied + 1)))).
    + cbn [ser_request]. rewrite <- !app_assoc. run_loop.
      change (fun d => ser_record (NtpServerDenyR d)) with ser_deny.
      rewrite loop_denied by exact W. run_loop. reflexivity.
    + reflexivity.
  - destruct W as [Ua [k [K [L1 L2]]]].
    assert (Wf : wf_record (FixedKeyRequestR c2s s2c)) by (cbn [wf_record]; unfold zlen in *; lia).
    eapply (loop_parser_roundtrip _ _ _ _ _ 6%nat).
    + cbn [ser_request]. rewrite <- !app_assoc. run_loop. destruct ka; cbn [app]; run_loop; reflexivity.
    + unfold req_finish. cbn [r_protocols r_algorithms r_auth r_denied r_wp r_wa r_ka r_keys orb].
      change (zlen [p] =? 1) with true. change (zlen [alg] =? 1) with true. cbn [negb orb].
      rewrite K. replace (zlen c2s =? k) with true by lia. replace (zlen s2c =? k) with true by lia.
      destruct ka; reflexivity.
  - destruct W as [Ua Wants]. eapply (loop_parser_roundtrip _ _ _ _ _ 5%nat).
    + cbn [ser_request]. rewrite <- !app_assoc. run_loop.
      destruct wp, wa, ka; cbn [app]; rewrite <- ?app_assoc; run_loop; reflexivity.
    + unfold req_finish. cbn [r_protocols r_algorithms r_auth r_denied r_wp r_wa r_ka r_keys].
      destruct wp, wa, ka; try discriminate Wants; reflexivity.
Qed.

Lemma parse_request_ok b q rest :
  parse_request b = (Ok q, rest) -> wf_request q /\ zlen (ser_request q) <= MAX_MESSAGE_SIZE.
Proof.
  revert b q rest. apply capped_ok.
  exact (loop_parser_ok _ _ _ rwf rsize _ _ rwf_init eq_refl req_step_wf req_step_size req_finish_ok).
Qed.

Lemma request_roundtrip q t :
  wf_request q -> zlen (ser_request q) <= MAX_MESSAGE_SIZE ->
  parse_request (ser_request q ++ t) = (Ok q, t).
Proof.
  intros W L. revert t. apply capped_roundtrip; [|exact L]. intros t. apply request_roundtrip_raw, W.
Qed.

Definition wf_response (p : response) : Prop :=
  (forall n, p_server p = Some n -> utf8_ok n) /\ zlen (p_cookies p) <= DEFAULT_NUMBER_OF_COOKIES.

Definition ser_cookie (c : list Z) : list Z := ser_record (NewCookieR c).

(* what the response accumulated in the state will take to serialise, without the end record *)
Definition psize (st : pstate) : Z :=
  (match s_protocol st with Some _ => 6 | None => 0 end)
  + (match s_algorithm st with Some _ => 6 | None => 0 end)
  + zlen (flat_map ser_cookie (s_cookies st))
  + (match s_server st with Some n => 4 + zlen n | None => 0 end)
  + (match s_port st with Some _ => 6 | None => 0 end)
  + b4 (s_ka st).

(* the server name is valid UTF-8 and at most eight cookies have been kept *)
Definition pwf (st : pstate) : Prop :=
  (forall n, s_server st = Some n -> utf8_ok n) /\ zlen (s_cookies st) <= DEFAULT_NUMBER_OF_COOKIES.

Lemma resp_step_size st r st' :
  resp_step st r = Continue st' -> psize st' <= psize st + zlen (ser_record r).
Proof.
  intros H. rewrite zlen_ser_record. pose proof (zlen_nonneg (rec_body r)) as NN.
  destruct st as [p a cs sv pt ka]. pose proof (b4_range ka).
  destruct r; cbn [resp_step s_protocol s_algorithm s_cookies s_server s_port s_ka] in H;
    try destruct critical; try destr_test H; try discriminate;
    try (destruct ids as [|id [|id2 ids]]; try discriminate);
    injection H as <-; unfold psize, ser_cookie;
    cbn [s_protocol s_algorithm s_cookies s_server s_port s_ka rec_body b4] in NN |- *;
    rewrite ?flat_map_app; cbn [flat_map app]; autorewrite with zlen in NN |- *; cbn [rec_body]; lia.
Qed.

Lemma resp_step_wf st r st' :
  pwf st -> wf_record r -> resp_step st r = Continue st' -> pwf st'.
Proof.
  intros [Ws Wc] W H. destruct st as [p a cs sv pt ka].
  destruct r; cbn [resp_step s_protocol s_algorithm s_cookies s_server s_port s_ka is_some] in H;
    try destruct critical; try destr_test H; try discriminate;
    try (destruct ids as [|id [|id2 ids]]; try discriminate);
    inversion H; subst; clear H;
    unfold pwf; cbn [s_server s_cookies] in *; (split; [|]); try assumption.
  - rewrite zlen_app. unfold zlen at 2. cbn [length]. lia.
  - intros n E. inversion E. subst. exact W.
Qed.

Lemma pwf_init : pwf pinit.
Proof. split; [discriminate|]. cbn. change DEFAULT_NUMBER_OF_COOKIES with 8. unfold zlen. cbn. lia. Qed.

Lemma resp_finish_ok st p :
  pwf st -> resp_finish st = Ok p -> wf_response p /\ zlen (ser_response p) <= psize st + 4.
Proof.
  intros W H. destruct st as [pr al cs sv pt ka]. unfold resp_finish in H.
  cbn [s_protocol s_algorithm s_cookies s_server s_port s_ka] in H.
  destruct pr as [pr|]; [|discriminate]. destruct al as [al|]; [|discriminate].
  injection H as <-. split; [exact W|].
  unfold ser_response, psize, ser_cookie. cbn [p_protocol p_algorithm p_cookies p_server p_port p_keep_alive
    s_protocol s_algorithm s_cookies s_server s_port s_ka].
  zlen_sums. destruct sv, pt, ka; cbn [b4]; zlen_sums; lia.
Qed.

Lemma resp_finish_total st s : resp_finish st <> Panic s.
Proof. unfold resp_finish. destruct (s_protocol st), (s_algorithm st); discriminate. Qed.

Lemma loop_cookies cs : forall p a c0 sv pt ka f t,
  zlen c0 + zlen cs <= DEFAULT_NUMBER_OF_COOKIES ->
  msg_loop resp_step (length cs + f) (mkP p a c0 sv pt ka) (flat_map ser_cookie cs ++ t) =
  msg_loop resp_step f (mkP p a (c0 ++ cs) sv pt ka) t.
Proof.
  induction cs as [|c cs IH]; intros p a c0 sv pt ka f t L.
  - cbn [flat_map length app Nat.add]. rewrite app_nil_r. reflexivity.
  - cbn [flat_map length Nat.add]. rewrite <- app_assoc. unfold ser_cookie at 1. run_loop.
    rewrite zlen_cons in L. pose proof (zlen_nonneg cs).
    replace (zlen c0 <? DEFAULT_NUMBER_OF_COOKIES) with true by lia.
    rewrite IH; [rewrite <- app_assoc; reflexivity|].
    rewrite zlen_app. unfold zlen at 2. cbn [length]. lia.
Qed.

Lemma response_roundtrip_raw p t :
  wf_response p -> parse_response_raw (ser_response p ++ t) = (Ok p, t).
Proof.
  intros [Ws Wc]. change parse_response_raw with (loop_parser resp_step pinit resp_finish).
  destruct p as [pr al cs sv pt ka]. cbn [p_server p_cookies] in *.
  eapply (loop_parser_roundtrip _ _ _ _ _ (S (S (length cs + 4)))).
  - unfold ser_response. cbn [p_protocol p_algorithm p_cookies p_server p_port p_keep_alive].
    rewrite <- !app_assoc. run_loop. change (fun c => ser_record (NewCookieR c)) with ser_cookie.
    rewrite loop_cookies by (unfold zlen at 1; cbn [length]; lia). cbn [app].
    destruct sv as [n|]; [pose proof (Ws n eq_refl : wf_record (ServerR n))|];
      destruct pt as [v|], ka; cbn [app]; rewrite <- ?app_assoc; run_loop; reflexivity.
  - reflexivity.
Qed.

Lemma parse_response_ok b p rest :
  parse_response b = (Ok p, rest) -> wf_response p /\ zlen (ser_response p) <= MAX_MESSAGE_SIZE.
Proof.
  revert b p rest. apply capped_ok.
  exact (loop_parser_ok _ _ _ pwf psize _ _ pwf_init eq_refl resp_step_wf resp_step_size resp_finish_ok).
Qed.

Lemma response_roundtrip p t :
  wf_response p -> zlen (ser_response p) <= MAX_MESSAGE_SIZE ->
  parse_response (ser_response p ++ t) = (Ok p, t).
Proof.
  intros W L. revert t. apply capped_roundtrip; [|exact L]. intros t. apply response_roundtrip_raw, W.
Qed.
