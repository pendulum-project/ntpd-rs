(* Proofs about the three absorb operations of Model/Estimator.v: the entry of the
   steered clock changes by exactly the absorbed amount (one addition), every other
   reported estimate is unchanged.  Generic in the element type. *)
From V Require Import Model.Estimator Proofs.Estimator.

Local Open Scope nat_scope.

Section Absorb.
Context {A : Type} (F : Ops A).
Notation est := (@est A).

(* the result r' is the result r with its value increased by ch (one rounding) *)
Definition bumped (ch : A) (r r' : res (A * A)) : Prop :=
  exists v u, r = Ok (v, u) /\ r' = Ok (fadd F v ch, u).

Lemma entry_bump (st : est) t i ch s : WF st -> bump F st i ch = Ok s ->
  let st' := with_state st t s (e_unc st) in
  WF st' /\ bumped ch (entry F st i) (entry F st' i) /\
  (forall j, j < m_rows (e_state st) -> j <> i -> entry F st' j = entry F st j).
Proof.
  intros W H st'. pose proof (WF_bump F st t i ch s W H) as W'.
  destruct (bump_shape F _ _ _ _ W H) as (Hi & -> & _). split; [exact W'|].
  assert (He : forall j, j < m_rows (e_state st) -> entry F st' j = _) by (intros j; apply (entry_ok F _ j W')).
  cbn [st' with_state e_state e_unc] in He. split.
  - exists (mget F (e_state st) i 0), (fsqrt F (mget F (e_unc st) i i)). split; [now apply entry_ok|].
    rewrite He by exact Hi. now rewrite mget_mset_same by (rewrite (wf_cols _ W), (wf_len _ W); lia).
  - intros j Hj Hne. rewrite He, (entry_ok F st j W Hj) by exact Hj.
    now rewrite mget_mset_other by (rewrite (wf_cols _ W); lia).
Qed.

(* what an absorption at the frequency row (fr = true) or the offset row of clock id does to the reports *)
Lemma absorb_at (st : est) id c (fr : bool) ch t s : WF st -> get_clock_info st id = Some c ->
  bump F st (if fr then frequency_index c else offset_index c) ch = Ok s ->
  let st' := with_state st t s (e_unc st) in
  WF st' /\
  (if fr then bumped ch (clock_frequency F st id) (clock_frequency F st' id)
              /\ clock_offset F st' id = clock_offset F st id
   else bumped ch (clock_offset F st id) (clock_offset F st' id)
        /\ clock_frequency F st' id = clock_frequency F st id) /\
  same_estimates_except_clock F st st' id.
Proof.
  intros W Hc Hb st'. destruct (get_clock_info_some _ _ _ Hc) as [Hin Hid].
  pose proof (wf_cb _ W c Hin) as Hcb.
  destruct (entry_bump st t _ ch s W Hb) as (W' & Hbump & Hoth). fold st' in W', Hbump, Hoth.
  unfold offset_index, frequency_index in *.
  split; [exact W'|]. split; [|split].
  - destruct (clock_reports_at F st id c Hc) as [-> ->]. destruct (clock_reports_at F st' id c Hc) as [-> ->].
    destruct fr; (split; [exact Hbump|apply Hoth; lia]).
  - intros id' Hne. apply (clock_reports_kept F st st' (fun x => x)).
    + unfold st', get_clock_info. cbn [with_state e_clocks]. now destruct (find _ (e_clocks st)).
    + intros c' Hin' Hid'. pose proof (wf_cb _ W c' Hin').
      assert (Hs : sep (ci_base c') 2 (ci_base c) 2) by (apply (wf_cc _ W); auto; congruence).
      unfold sep in Hs. split; apply Hoth; destruct fr; lia.
  - intros l. apply (link_report_kept F st st' (fun x => x)).
    + unfold st', get_link_info. cbn [with_state e_links]. now destruct (find _ (e_links st)).
    + intros li Hlin _. pose proof (wf_lb _ W li Hlin).
      pose proof (wf_cl _ W c li Hin Hlin) as Hs. unfold sep in Hs. apply Hoth; destruct fr; lia.
Qed.

End Absorb.
