(* Proofs about the packet codec model.  The decoder is characterised piece by piece (one raw field,
   one call of the streamer, one iteration of the extension-field loop, the loop, with_fields,
   deserialize); the proofs for C23, C24 and C25 go through these.  (lia on / and mod relies on the
   Zify hook that Proofs/Bytes.v sets.)  Then: the decoder is total (C23). *)
From V Require Import Model.Packet Proofs.Common Proofs.Bytes.
From V Require Import Gen.ConstPacket.

Definition oracle_wf (dec : oracle) : Prop :=
  forall k n a c p, dec k n a c = Some p -> wf_bytes p.

Lemma slice_cons4 : forall b0 b1 b2 b3 (rest : bytes) hi,
  slice (b0 :: b1 :: b2 :: b3 :: rest) 4 hi =
  if (4 <=? hi) && (hi - 4 <=? blen rest) then Some (btake (hi - 4) rest) else None.
Proof.
  intros. unfold slice. rewrite !blen_cons. change (bdrop 4 (b0 :: b1 :: b2 :: b3 :: rest)) with rest.
  destruct ((0 <=? 4) && (4 <=? hi) && (hi <=? 1 + (1 + (1 + (1 + blen rest))))) eqn:E1;
    destruct ((4 <=? hi) && (hi - 4 <=? blen rest)) eqn:E2; reflexivity || lia.
Qed.

Lemma raw_ok : forall data minimum v5 tid m,
  raw_deserialize data minimum v5 = Ok (tid, m) <->
  exists b0 b1 b2 b3 rest, data = b0 :: b1 :: b2 :: b3 :: rest /\ tid = b0 * 256 + b1 /\
    minimum <= b2 * 256 + b3 /\ (v5 = false -> (b2 * 256 + b3) mod 4 = 0) /\
    4 <= b2 * 256 + b3 /\ nm4 (b2 * 256 + b3) - 4 <= blen rest /\ m = btake (b2 * 256 + b3 - 4) rest.
Proof.
  intros data minimum v5 tid m. unfold raw_deserialize.
  destruct data as [|b0 [|b1 [|b2 [|b3 rest]]]];
    try (split; [discriminate|intros (? & ? & ? & ? & ? & E & _); discriminate E]).
  rewrite !slice_cons4. set (fl := b2 * 256 + b3). pose proof (nm4_ge fl) as Hn. split.
  - intros H. exists b0, b1, b2, b3, rest. fold fl.
    destruct (fl <? minimum) eqn:E1; [discriminate|].
    destruct (negb v5 && negb (fl mod 4 =? 0)) eqn:E2; [discriminate|].
    destruct ((4 <=? nm4 fl) && (nm4 fl - 4 <=? blen rest)) eqn:E3; [|discriminate].
    destruct ((4 <=? fl) && (fl - 4 <=? blen rest)) eqn:E4; [|discriminate].
    inversion H; subst tid m. repeat split; try lia. intros ->. cbn [negb andb] in E2. lia.
  - intros (c0 & c1 & c2 & c3 & r & E & -> & Hmin & Hm & H4 & Hr & ->). inversion E; subst c0 c1 c2 c3 r. fold fl in Hmin, Hm, H4, Hr |- *.
    replace (fl <? minimum) with false by lia.
    replace (negb v5 && negb (fl mod 4 =? 0)) with false by (destruct v5; [reflexivity|specialize (Hm eq_refl); cbn [negb andb]; lia]).
    replace ((4 <=? nm4 fl) && (nm4 fl - 4 <=? blen rest)) with true by lia.
    replace ((4 <=? fl) && (fl - 4 <=? blen rest)) with true by lia. reflexivity.
Qed.

Lemma raw_np : forall data minimum v5, np (raw_deserialize data minimum v5).
Proof.
  intros data minimum v5. unfold raw_deserialize.
  destruct data as [|b0 [|b1 [|b2 [|b3 rest]]]]; try apply np_err.
  destruct (_ <? _); [apply np_err|].
  destruct (_ && _); [apply np_err|].
  destruct (slice _ 4 (nm4 _)); [|apply np_err].
  destruct (slice _ 4 _); [apply np_ok|apply np_err].
Qed.

Lemma raw_inv : forall data minimum v5 tid m, raw_deserialize data minimum v5 = Ok (tid, m) ->
  m = btake (blen m) (bdrop 4 data) /\ 4 <= wire_length m <= blen data /\
  (v5 = false -> blen m mod 4 = 0) /\
  (wf_bytes data -> wf_bytes m /\ 0 <= tid < 65536 /\ blen m <= 65531).
Proof.
  intros data minimum v5 tid m H. apply raw_ok in H.
  destruct H as (b0 & b1 & b2 & b3 & rest & -> & -> & _ & Hm & H4 & Hr & ->).
  set (fl := b2 * 256 + b3) in *. pose proof (nm4_ge fl).
  change (bdrop 4 (b0 :: b1 :: b2 :: b3 :: rest)) with rest.
  unfold wire_length. rewrite !blen_cons, blen_btake by lia. replace (2 + 2 + (fl - 4)) with fl by lia.
  split; [reflexivity|]. split; [lia|]. split; [intros Hv; specialize (Hm Hv); lia|].
  intros Hwf. apply wf_cons_inv in Hwf. destruct Hwf as [? Hwf]. apply wf_cons_inv in Hwf. destruct Hwf as [? Hwf].
  apply wf_cons_inv in Hwf. destruct Hwf as [? Hwf]. apply wf_cons_inv in Hwf. destruct Hwf as [? Hwf].
  split; [apply wf_btake; exact Hwf|]. unfold fl. lia.
Qed.

Lemma stream_next_np : forall buf cutoff minimum v5 offset e off',
  stream_next buf cutoff minimum v5 offset = Some (e, off') -> np e.
Proof.
  intros buf cutoff minimum v5 offset e off' H. unfold stream_next in H.
  destruct (_ >? _); [discriminate|]. destruct (_ <=? _); [discriminate|].
  pose proof (raw_np (bdrop offset buf) minimum v5) as Hn.
  destruct (raw_deserialize _ _ _) as [[tid m]|e'|s]; inversion H; subst.
  - apply np_ok. - apply np_err. - exfalso; eapply Hn; reflexivity.
Qed.

Lemma stream_next_inv : forall buf cutoff minimum v5 offset tid m off', 0 <= offset ->
  stream_next buf cutoff minimum v5 offset = Some (Ok (tid, m), off') ->
  raw_deserialize (bdrop offset buf) minimum v5 = Ok (tid, m) /\
  off' = offset + wire_length m /\ offset + 4 <= off' <= blen buf /\
  m = btake (blen m) (bdrop (offset + 4) buf) /\ (v5 = false -> blen m mod 4 = 0) /\
  (wf_bytes buf -> wf_bytes m /\ 0 <= tid < 65536 /\ blen m <= 65531).
Proof.
  intros buf cutoff minimum v5 offset tid m off' Ho H. unfold stream_next in H.
  destruct (offset >? blen buf) eqn:E0; [discriminate|]. destruct (_ <=? _); [discriminate|].
  destruct (raw_deserialize _ _ _) as [[tid' m']|e'|s] eqn:E; inversion H; subst tid' m' off'; clear H.
  split; [reflexivity|]. apply raw_inv in E. rewrite blen_bdrop, bdrop_bdrop in E by lia.
  destruct E as (Hm & Hw & Hmod & Hwf). repeat split; try assumption; try lia; apply Hwf, wf_bdrop; assumption.
Qed.

Lemma stream_next_none : forall buf cutoff minimum v5 offset, 0 <= offset <= blen buf ->
  (stream_next buf cutoff minimum v5 offset = None <-> blen buf - offset <= cutoff).
Proof.
  intros buf cutoff minimum v5 offset H. unfold stream_next. rewrite blen_bdrop by lia.
  replace (offset >? blen buf) with false by lia.
  destruct (blen buf - offset <=? cutoff) eqn:E; [split; [lia|reflexivity]|].
  split; [|lia]. destruct (raw_deserialize _ _ _) as [[? ?]|?|?]; discriminate.
Qed.

Lemma stream_next_app : forall pre X cutoff minimum v5 tid m,
  raw_deserialize X minimum v5 = Ok (tid, m) -> cutoff < blen X ->
  stream_next (pre ++ X) cutoff minimum v5 (blen pre) = Some (Ok (tid, m), blen pre + wire_length m).
Proof.
  intros pre X cutoff minimum v5 tid m H Hc. unfold stream_next. rewrite blen_app, bdrop_app.
  pose proof (blen_nonneg X). replace (blen pre >? blen pre + blen X) with false by lia.
  replace (blen X <=? cutoff) with false by lia. rewrite H. reflexivity.
Qed.

Lemma leap_np : forall d0, np (leap_from_bits ((d0 / 64) mod 4)).
Proof.
  intros d0. unfold leap_from_bits.
  destruct (_ =? 0) eqn:E0; [apply np_ok|]. destruct (_ =? 1) eqn:E1; [apply np_ok|].
  destruct (_ =? 2) eqn:E2; [apply np_ok|]. destruct (_ =? 3) eqn:E3; [apply np_ok|]. lia.
Qed.

Lemma mode_np : forall d0, np (mode_from_bits (d0 mod 8)).
Proof. intros d0. unfold mode_from_bits. destruct (_ && _) eqn:E; [apply np_ok|lia]. Qed.

Lemma field_np : forall data lo hi, 0 <= lo -> lo <= hi -> hi <= blen data -> np (field data lo hi).
Proof. intros. unfold field. apply np_bind; [apply range_np; assumption|]. intros; apply np_ok. Qed.

Lemma v5_mode_np : forall b, np (v5_mode_from_bits b).
Proof. intros b. unfold v5_mode_from_bits. destruct (_ || _); [apply np_ok|apply np_err]. Qed.
Lemma v5_timescale_np : forall b, np (v5_timescale_from_bits b).
Proof. intros b. unfold v5_timescale_from_bits. destruct (_ && _); [apply np_ok|apply np_err]. Qed.
Lemma v5_flags_np : forall b0 b1, np (v5_flags_from_bits b0 b1).
Proof. intros b0 b1. unfold v5_flags_from_bits. destruct (_ || _); [apply np_err|apply np_ok]. Qed.

(* a chain of binds over reads that lia shows to be in range *)
Ltac np_chain :=
  repeat first
    [ apply np_ok | apply np_err
    | apply np_bind;
      [ first [ apply idx_np; lia | apply field_np; lia | apply range_np; lia | apply leap_np | apply mode_np
              | apply v5_mode_np | apply v5_timescale_np | apply v5_flags_np ]
      | intros ? _ ] ].

Lemma decode_field_np : forall tid m v5, blen m <= 65535 -> np (decode_field tid m v5).
Proof.
  intros tid m v5 H. unfold decode_field.
  destruct (tid =? T_UID); [apply np_ok|].
  destruct (tid =? T_COOKIE); [apply np_ok|].
  destruct (tid =? T_PLACEHOLDER). { destruct (all_zero m); [apply np_ok|apply np_err]. }
  destruct (_ && _). { destruct (all_ascii m); [apply np_ok|apply np_err]. }
  destruct (_ && _).
  { apply np_bind.
    - unfold refreq_decode. replace (blen m >? 65535) with false by lia.
      destruct (slice m 0 2); [apply np_ok|apply np_err].
    - intros [plen off] _. destruct (_ =? _); [apply np_ok|apply np_err]. }
  destruct (_ && _); apply np_ok.
Qed.

Lemma inner_fields_np : forall pt v5, wf_bytes pt -> forall fuel offset,
  0 <= offset <= blen pt -> blen pt - offset < Z.of_nat fuel -> np (inner_fields fuel pt v5 offset).
Proof.
  intros pt v5 Hwf. induction fuel as [|fuel IH]; intros offset Ho Hf.
  - lia.
  - cbn [inner_fields].
    destruct (stream_next pt 0 EF_BARE_MINIMUM_SIZE v5 offset) as [[e off']|] eqn:E; [|apply np_ok].
    pose proof (stream_next_np _ _ _ _ _ _ _ E) as Hn.
    destruct e as [[tid m]|e|s]; [|apply np_err|exfalso; eapply Hn; reflexivity].
    apply stream_next_inv in E; [|lia]. destruct E as (_ & _ & ? & _ & _ & Hm). destruct (Hm Hwf) as (_ & _ & ?).
    destruct (tid =? T_ENCRYPTED); [apply np_err|].
    apply np_bind; [apply decode_field_np; lia|]. intros f _.
    apply np_bind; [apply IH; lia|]. intros r _. apply np_ok.
Qed.

Lemma cookie_of_plaintext_np : forall pt, np (cookie_of_plaintext pt).
Proof.
  intros pt. unfold cookie_of_plaintext. destruct pt as [|b0 [|b1 kb]]; try apply np_ok.
  assert (forall w, 0 <= w -> np (if blen kb =? 2 * w
            then if (blen (btake w kb) =? w) && (blen (bdrop w kb) =? w)
                 then Ok (Some (mkCookie (b0 * 256 + b1) (btake w kb) (bdrop w kb))) else Panic S_COOKIE_KEY
            else Ok None)) as Hmk.
  { intros w Hw. destruct (blen kb =? 2 * w) eqn:E; [|apply np_ok].
    rewrite blen_btake by lia. rewrite blen_bdrop by lia.
    replace ((w =? w) && (blen kb - w =? w)) with true by lia. apply np_ok. }
  destruct (_ =? AEAD_ID_256); [apply Hmk; unfold COOKIE_KEY_WIDTH_256; lia|].
  destruct (_ =? AEAD_ID_512); [apply Hmk; unfold COOKIE_KEY_WIDTH_512; lia|].
  apply np_ok.
Qed.

Lemma decode_cookie_np : forall dec keys off c, np (decode_cookie dec keys off c).
Proof.
  intros dec keys off c. unfold decode_cookie.
  unfold COOKIE_MIN_LEN_ID, COOKIE_MIN_LEN_CT, COOKIE_MIN_LEN_NONCE.
  destruct (blen c <? 4 + 2 + 16) eqn:E; [apply np_ok|]. np_chain.
  destruct (if _ <? _ then _ else _); [|apply np_ok]. np_chain.
  destruct (slice _ 0 _); [|apply np_ok].
  destruct (dec _ _ _ _); [apply cookie_of_plaintext_np|apply np_ok].
Qed.

Lemma keyset_get_np : forall dec keys off context decoded, np (keyset_get dec keys off context decoded).
Proof.
  intros dec keys off context. induction context as [|f rest IH]; intros decoded; cbn [keyset_get].
  - apply np_ok.
  - destruct f; try apply IH.
    destruct decoded; [apply np_ok|].
    apply np_bind; [apply decode_cookie_np|]. intros r _. destruct r; [apply IH|apply np_ok].
Qed.

Lemma cipher_get_np : forall dec cx context, np (cipher_get dec cx context).
Proof.
  intros dec cx context. destruct cx; cbn [cipher_get]; try apply np_ok.
  apply np_bind; [apply keyset_get_np|]. intros; apply np_ok.
Qed.

Lemma enc_from_message_np : forall m, np (enc_from_message m).
Proof.
  intros m. unfold enc_from_message. destruct m as [|b0 [|b1 [|b2 [|b3 rest]]]]; try apply np_err.
  destruct (slice rest 0 _); [|apply np_err]. destruct (slice _ _ _); [apply np_ok|apply np_err].
Qed.

(* the loop body as a function: what one field does to the state *)
Definition ef_step (dec : oracle) (cx : ctx) (data : bytes) (hs : Z) (v5 : bool)
           (offset : Z) (st : lstate) (tid : Z) (m : bytes) : res lstate :=
  let st := set_size st (offset + wire_length m) in
  if tid =? T_ENCRYPTED then
    do nc <- enc_from_message m;
    let '(nonce, ct) := nc in
    do h <- cipher_get dec cx (untrusted (l_ef st));
    match h with
    | None => Ok (push_invalid st)
    | Some h =>
        do aad <- range data 0 (hs + offset) S_EF_AAD;
        match dec (holder_key h) nonce aad ct with
        | None => Ok (push_invalid st)
        | Some pt =>
            do fs <- inner_fields (S (List.length pt)) pt v5 0;
            Ok (promote st fs h)
        end
    end
  else
    do f <- decode_field tid m v5;
    Ok (push_untrusted st f).

Lemma ef_step_plain : forall dec cx data hs v5 offset st tid m, (tid =? T_ENCRYPTED) = false ->
  ef_step dec cx data hs v5 offset st tid m =
  do f <- decode_field tid m v5; Ok (push_untrusted (set_size st (offset + wire_length m)) f).
Proof. intros. unfold ef_step. rewrite H. reflexivity. Qed.

Lemma ef_loop_unfold : forall fuel dec cx data hs v5 buf offset st,
  ef_loop (S fuel) dec cx data hs v5 buf offset st =
  match stream_next buf (ef_cutoff v5) 4 v5 offset with
  | None => Ok st
  | Some (Err e, _) => Err e
  | Some (Panic s, _) => Panic s
  | Some (Ok (tid, m), off') =>
      do s <- ef_step dec cx data hs v5 offset st tid m;
      ef_loop fuel dec cx data hs v5 buf off' s
  end.
Proof.
  intros. cbn [ef_loop]. change EF_V4_UNENCRYPTED_MINIMUM_SIZE with 4.
  destruct (stream_next buf (ef_cutoff v5) 4 v5 offset) as [[[[tid m]|e|s] off']|]; try reflexivity.
  unfold ef_step. destruct (tid =? T_ENCRYPTED).
  - destruct (enc_from_message m) as [[nonce ct]|e|s]; cbn [res_bind]; try reflexivity.
    destruct (cipher_get _ _ _) as [[h|]|e|s]; cbn [res_bind]; try reflexivity.
    destruct (range _ _ _ _) as [aad|e|s]; cbn [res_bind]; try reflexivity.
    destruct (dec _ _ _ _) as [pt|]; try reflexivity.
    destruct (inner_fields _ _ _ _) as [fs|e|s]; reflexivity.
  - destruct (decode_field _ _ _) as [f|e|s]; reflexivity.
Qed.

Lemma ef_step_size : forall dec cx data hs v5 offset st tid m s,
  ef_step dec cx data hs v5 offset st tid m = Ok s -> l_size s = offset + wire_length m.
Proof.
  intros dec cx data hs v5 offset st tid m s H. unfold ef_step in H.
  destruct (tid =? T_ENCRYPTED).
  - inv_bind H. destruct a as [nonce ct]. inv_bind H. destruct a as [h|]; [|inversion H; reflexivity].
    inv_bind H. destruct (dec _ _ _ _); [|inversion H; reflexivity]. inv_bind H. inversion H; reflexivity.
  - inv_bind H. inversion H; reflexivity.
Qed.

Lemma ef_step_np : forall dec cx data hs v5 offset st tid m, oracle_wf dec ->
  0 <= hs + offset <= blen data -> blen m <= 65535 -> np (ef_step dec cx data hs v5 offset st tid m).
Proof.
  intros dec cx data hs v5 offset st tid m Hdec Ho Hm. unfold ef_step. destruct (tid =? T_ENCRYPTED).
  - apply np_bind; [apply enc_from_message_np|]. intros [nonce ct] _.
    apply np_bind; [apply cipher_get_np|]. intros [h|] _; [|apply np_ok].
    apply np_bind; [apply range_np; lia|]. intros aad _.
    destruct (dec _ _ _ _) as [pt|] eqn:Ed; [|apply np_ok].
    apply np_bind; [|intros; apply np_ok].
    apply inner_fields_np; [exact (Hdec _ _ _ _ _ Ed)|pose proof (blen_nonneg pt); lia|unfold blen; lia].
  - apply np_bind; [apply decode_field_np; assumption|]. intros; apply np_ok.
Qed.

(* a property of (offset, state) that every iteration preserves holds where the loop stops *)
Lemma ef_loop_ind : forall (P : Z -> lstate -> Prop) dec cx data hs v5 buf,
  (forall offset st tid m off' s, 0 <= offset -> P offset st ->
     stream_next buf (ef_cutoff v5) 4 v5 offset = Some (Ok (tid, m), off') ->
     ef_step dec cx data hs v5 offset st tid m = Ok s -> P off' s) ->
  forall fuel offset st st', 0 <= offset -> P offset st ->
  ef_loop fuel dec cx data hs v5 buf offset st = Ok st' ->
  exists off, 0 <= off /\ P off st' /\ stream_next buf (ef_cutoff v5) 4 v5 off = None.
Proof.
  intros P dec cx data hs v5 buf Hstep. induction fuel as [|fuel IH]; intros offset st st' Ho HP H; [discriminate|].
  rewrite ef_loop_unfold in H.
  destruct (stream_next buf (ef_cutoff v5) 4 v5 offset) as [[[[tid m]|e|s] off']|] eqn:E; try discriminate.
  - inv_bind H. apply IH in H; [exact H| |eapply Hstep; eassumption].
    apply stream_next_inv in E; lia.
  - inversion H; subst st'. exists offset. auto.
Qed.

Definition st_init : lstate := mkL efdata_empty 0 true None.

Lemma ef_loop_size : forall dec cx data hs v5 buf fuel st',
  ef_loop fuel dec cx data hs v5 buf 0 st_init = Ok st' -> 0 <= l_size st' <= blen buf.
Proof.
  intros dec cx data hs v5 buf fuel st' H.
  apply (ef_loop_ind (fun _ st => 0 <= l_size st <= blen buf)) in H; [destruct H as (_ & _ & H & _); exact H| |lia|].
  - intros offset st tid m off' s Ho _ E Hs. apply ef_step_size in Hs. apply stream_next_inv in E; lia.
  - unfold st_init. cbn [l_size]. pose proof (blen_nonneg buf). lia.
Qed.

Lemma ef_loop_np : forall dec cx data hs v5 buf, wf_bytes buf -> oracle_wf dec ->
  0 <= hs -> hs + blen buf <= blen data ->
  forall fuel offset st, 0 <= offset <= blen buf -> blen buf - offset < Z.of_nat fuel ->
  np (ef_loop fuel dec cx data hs v5 buf offset st).
Proof.
  intros dec cx data hs v5 buf Hwf Hdec Hhs Hlen.
  induction fuel as [|fuel IH]; intros offset st Ho Hf; [lia|].
  rewrite ef_loop_unfold.
  destruct (stream_next buf (ef_cutoff v5) 4 v5 offset) as [[e off']|] eqn:E; [|apply np_ok].
  pose proof (stream_next_np _ _ _ _ _ _ _ E) as Hn.
  destruct e as [[tid m]|e|s]; [|apply np_err|exfalso; eapply Hn; reflexivity].
  apply stream_next_inv in E; [|lia]. destruct E as (_ & _ & ? & _ & _ & Hm). destruct (Hm Hwf) as (_ & _ & ?).
  apply np_bind; [apply ef_step_np; [assumption|lia|lia]|]. intros s _. apply IH; lia.
Qed.

Lemma mac_deserialize_np : forall data, np (mac_deserialize data).
Proof.
  intros data. unfold mac_deserialize, MAC_MINIMUM_SIZE, MAC_MAXIMUM_SIZE.
  destruct (_ || _) eqn:E; [apply np_err|]. np_chain.
Qed.

(* what the bytes left after the header and the fields are read as: nothing, or a MAC *)
Definition opt_mac (r : bytes) : res (option mac) :=
  match r with [] => Ok None | _ => do m <- mac_deserialize r; Ok (Some m) end.

Lemma opt_mac_np : forall r, np (opt_mac r).
Proof.
  intros r. unfold opt_mac. destruct r; [apply np_ok|].
  apply np_bind; [apply mac_deserialize_np|]. intros; apply np_ok.
Qed.

Lemma construct_packet_eq : forall h r d,
  construct_packet h r d = do m <- opt_mac r; Ok (mkPacket h d m).
Proof.
  intros h r d. unfold construct_packet, opt_mac. destruct r; [reflexivity|].
  destruct (mac_deserialize _); reflexivity.
Qed.

(* the result of with_fields from the state the loop ends in *)
Definition finish (h : header) (data : bytes) (hs : Z) (st : lstate) : res outcome :=
  do m <- opt_mac (bdrop (hs + l_size st) data);
  let p := mkPacket h (l_ef st) m in
  Ok (if l_valid st then Accept p (l_cookie st) else DecryptFailed p).

Lemma finish_ok : forall h data hs st o, finish h data hs st = Ok o ->
  exists m, opt_mac (bdrop (hs + l_size st) data) = Ok m /\
    o = if l_valid st then Accept (mkPacket h (l_ef st) m) (l_cookie st) else DecryptFailed (mkPacket h (l_ef st) m).
Proof.
  intros h data hs st o H. unfold finish in H. apply bind_ok in H. destruct H as (m & Hm & H).
  exists m. split; [exact Hm|]. inversion H; reflexivity.
Qed.

Lemma with_fields_eq : forall dec cx data h hs v5, 0 <= hs <= blen data ->
  with_fields dec cx data h hs v5 =
  do st <- ef_loop (S (List.length (bdrop hs data))) dec cx data hs v5 (bdrop hs data) 0 st_init;
  finish h data hs st.
Proof.
  intros dec cx data h hs v5 Hhs. unfold with_fields, efdata_deserialize, finish.
  rewrite range_end by lia. cbn [res_bind]. fold st_init.
  destruct (ef_loop _ _ _ _ _ _ _ _ _) as [st|e|s] eqn:E; cbn [res_bind]; try reflexivity.
  apply ef_loop_size in E. rewrite blen_bdrop in E by lia.
  rewrite range_end by lia. cbn [res_bind]. rewrite construct_packet_eq.
  destruct (opt_mac _); cbn [res_bind]; try reflexivity. destruct (l_valid st); reflexivity.
Qed.

Lemma with_fields_np : forall dec cx data h hs v5, wf_bytes data -> oracle_wf dec ->
  0 <= hs <= blen data -> np (with_fields dec cx data h hs v5).
Proof.
  intros dec cx data h hs v5 Hwf Hdec Hhs. rewrite with_fields_eq by assumption.
  pose proof (blen_bdrop hs data Hhs) as Hb.
  apply np_bind.
  - apply ef_loop_np; [apply wf_bdrop; assumption|assumption|lia|lia|lia|unfold blen in *; lia].
  - intros st _. apply np_bind; [apply opt_mac_np|]. intros; apply np_ok.
Qed.

Lemma hdr34_deserialize_np : forall data, np (hdr34_deserialize data).
Proof.
  intros data. unfold hdr34_deserialize, HDR34_WIRE_LENGTH.
  destruct (blen data <? 48) eqn:E; [apply np_err|]. np_chain.
Qed.

Lemma hdr5_deserialize_np : forall data, np (hdr5_deserialize data).
Proof.
  intros data. unfold hdr5_deserialize, HDR5_WIRE_LENGTH.
  destruct (blen data <? 48) eqn:E; [apply np_err|].
  apply np_bind; [apply idx_np; lia|]. intros d0 _.
  destruct (negb _); [apply np_err|]. np_chain.
Qed.

Lemma hdr34_ok_len : forall data h, hdr34_deserialize data = Ok h -> 48 <= blen data.
Proof.
  intros data h H. unfold hdr34_deserialize, HDR34_WIRE_LENGTH in H.
  destruct (blen data <? 48) eqn:E; [discriminate|lia].
Qed.
Lemma hdr5_ok_len : forall data h, hdr5_deserialize data = Ok h -> 48 <= blen data.
Proof.
  intros data h H. unfold hdr5_deserialize, HDR5_WIRE_LENGTH in H.
  destruct (blen data <? 48) eqn:E; [discriminate|lia].
Qed.

Definition header_deserialize (data : bytes) : res header :=
  do d0 <- idx data 0 S_DATA0;
  let version := (d0 / 8) mod 8 in
  if version =? 3 then do h <- hdr34_deserialize data; Ok (HV3 h)
  else if version =? 4 then do h <- hdr34_deserialize data; Ok (HV4 h)
  else if version =? 5 then do h <- hdr5_deserialize data; Ok (HV5 h)
  else Err E_InvalidVersion.

Definition is_v5 (hd : header) : bool := match hd with HV5 _ => true | _ => false end.

Lemma is_v5_version : forall hd, is_v5 hd = (header_version hd =? 5).
Proof. intros [h|h|h]; reflexivity. Qed.

Lemma header_deserialize_agree : forall x y, btake 48 x = btake 48 y -> 48 <= blen x -> 48 <= blen y ->
  header_deserialize x = header_deserialize y.
Proof.
  intros x y H Hx Hy.
  unfold header_deserialize, hdr34_deserialize, hdr5_deserialize, field, HDR34_WIRE_LENGTH, HDR5_WIRE_LENGTH.
  replace (blen x <? 48) with false by lia. replace (blen y <? 48) with false by lia.
  rewrite !(idx_agree 48 x y), !(range_agree 48 x y) by (assumption || lia). reflexivity.
Qed.

(* an accepted v5 packet must carry the draft identification *)
Definition draft_gate (o : outcome) : res outcome :=
  match o with
  | DecryptFailed _ => Ok o
  | Accept p _ =>
      match draft_id p with
      | Some id => if bytes_eqb id draft_version_bytes then Ok o else Err E_V5_InvalidDraft
      | None => Err E_V5_InvalidDraft
      end
  end.

Definition after_header (dec : oracle) (cx : ctx) (data : bytes) (hd : header) : res outcome :=
  match hd with
  | HV3 _ => do m <- opt_mac (bdrop 48 data); Ok (Accept (mkPacket hd efdata_empty m) None)
  | HV4 _ => with_fields dec cx data hd 48 false
  | HV5 _ => do o <- with_fields dec cx data hd 48 true; draft_gate o
  end.

Lemma header_deserialize_inv : forall data hd, header_deserialize data = Ok hd ->
  48 <= blen data /\
  (exists d0, idx data 0 S_DATA0 = Ok d0 /\ (d0 / 8) mod 8 = header_version hd) /\
  match hd with
  | HV3 h | HV4 h => hdr34_deserialize data = Ok h
  | HV5 h => hdr5_deserialize data = Ok h
  end.
Proof.
  intros data hd H. unfold header_deserialize in H. inv_bind H. rename a into d0.
  destruct (_ =? 3) eqn:V3; [|destruct (_ =? 4) eqn:V4; [|destruct (_ =? 5) eqn:V5; [|discriminate]]];
    inv_bind H; inversion H; subst hd; cbn [header_version];
    (split; [eauto using hdr34_ok_len, hdr5_ok_len|]); (split; [exists d0; split; [assumption|lia]|assumption]).
Qed.

Lemma draft_gate_ok : forall o o', draft_gate o = Ok o' -> o' = o.
Proof.
  intros [p ck|p] o' H; cbn [draft_gate] in H; [|inversion H; reflexivity].
  destruct (draft_id p); [|discriminate]. destruct (bytes_eqb _ _); inversion H; reflexivity.
Qed.

Lemma draft_gate_accept : forall p c,
  draft_gate (Accept p c) = Ok (Accept p c) <->
  exists id, draft_id p = Some id /\ bytes_eqb id draft_version_bytes = true.
Proof.
  intros p c. cbn [draft_gate]. destruct (draft_id p) as [id|].
  - destruct (bytes_eqb id draft_version_bytes) eqn:E; split; intros H; try discriminate; eauto.
    destruct H as (id' & Hi & Hb). inversion Hi; subst id'. congruence.
  - split; [discriminate|]. intros (id & Hi & _). discriminate.
Qed.

Lemma after_header_fields : forall dec cx data hd o, header_version hd <> 3 ->
  after_header dec cx data hd = Ok o -> with_fields dec cx data hd 48 (is_v5 hd) = Ok o.
Proof.
  intros dec cx data hd o Hv H. destruct hd; cbn [after_header is_v5 header_version] in *; [contradiction|exact H|].
  apply bind_ok in H. destruct H as (o' & Hw & Hg). rewrite (draft_gate_ok _ _ Hg). exact Hw.
Qed.

Lemma deserialize_eq : forall dec cx data, data <> [] ->
  deserialize dec cx data = do hd <- header_deserialize data; after_header dec cx data hd.
Proof.
  intros dec cx data Hne. unfold deserialize, header_deserialize.
  destruct data as [|x data']; [contradiction|]. remember (x :: data') as data eqn:Ed. clear Ed Hne.
  destruct (idx data 0 S_DATA0) as [d0|e|s]; cbn [res_bind]; try reflexivity.
  unfold HDR34_WIRE_LENGTH, HDR5_WIRE_LENGTH.
  destruct (_ =? 3).
  { destruct (hdr34_deserialize data) as [h|e|s] eqn:Eh; cbn [res_bind after_header]; try reflexivity.
    apply hdr34_ok_len in Eh. f_equal. pose proof (blen_bdrop 48 data ltac:(lia)) as Hb.
    destruct (48 =? blen data) eqn:E48.
    - rewrite (blen_zero_nil (bdrop 48 data)) by lia. reflexivity.
    - rewrite range_end by lia. cbn [res_bind]. unfold opt_mac.
      destruct (bdrop 48 data); [change (blen []) with 0 in Hb; lia|reflexivity]. }
  destruct (_ =? 4); [destruct (hdr34_deserialize data); reflexivity|].
  destruct (_ =? 5); [|reflexivity].
  destruct (hdr5_deserialize data); cbn [res_bind after_header]; try reflexivity.
  destruct (with_fields _ _ _ _ _ _) as [[p ck|p]|e|s]; reflexivity.
Qed.

Lemma deserialize_ok_inv : forall dec cx data o, deserialize dec cx data = Ok o ->
  exists hd, header_deserialize data = Ok hd /\ after_header dec cx data hd = Ok o.
Proof.
  intros dec cx data o H. destruct data as [|x data']; [discriminate|].
  rewrite deserialize_eq in H by discriminate. apply bind_ok in H. exact H.
Qed.

Theorem deserialize_total : forall dec cx data, wf_bytes data -> oracle_wf dec ->
  forall s, deserialize dec cx data <> Panic s.
Proof.
  intros dec cx data Hwf Hdec. change (np (deserialize dec cx data)).
  destruct data as [|x data']; [apply np_err|]. rewrite deserialize_eq by discriminate.
  remember (x :: data') as data eqn:Ed.
  assert (1 <= blen data) as Hlen by (subst data; rewrite blen_cons; pose proof (blen_nonneg data'); lia).
  clear Ed. apply np_bind.
  - unfold header_deserialize. apply np_bind; [apply idx_np; lia|]. intros d0 _.
    destruct (_ =? 3); [apply np_bind; [apply hdr34_deserialize_np|intros; apply np_ok]|].
    destruct (_ =? 4); [apply np_bind; [apply hdr34_deserialize_np|intros; apply np_ok]|].
    destruct (_ =? 5); [apply np_bind; [apply hdr5_deserialize_np|intros; apply np_ok]|apply np_err].
  - intros hd Hhd. apply header_deserialize_inv in Hhd. destruct Hhd as (H48 & _).
    destruct hd; cbn [after_header].
    + apply np_bind; [apply opt_mac_np|]. intros; apply np_ok.
    + apply with_fields_np; try assumption; lia.
    + apply np_bind; [apply with_fields_np; try assumption; lia|]. intros [p ck|p] _; cbn [draft_gate]; [|apply np_ok].
      destruct (draft_id p); [|apply np_err]. destruct (bytes_eqb _ _); [apply np_ok|apply np_err].
Qed.

(* [wf_bytes] as a boolean check, for concrete byte strings and the table oracles (C23_table_oracles_wf) *)
Definition wf_bytes_b (b : bytes) : bool := forallb (fun x => (0 <=? x) && (x <? 256)) b.
Lemma wf_bytes_check : forall b, wf_bytes_b b = true -> wf_bytes b.
Proof.
  intros b H. unfold wf_bytes_b in H. rewrite forallb_forall in H.
  unfold wf_bytes. rewrite Forall_forall. intros x Hx. apply H in Hx. unfold is_byte. lia.
Qed.
