(* Message::serialize and Message::deserialize seen through their guards: when each succeeds and
   with what, and that parsing never panics.  The round-trip proofs (C41) and the CSPTP proofs
   (C44, C45) use the two functions through these lemmas. *)
From V Require Import Model.PtpWire Proofs.Common Proofs.WireBytes Proofs.TlvSet.

Lemma msg_serialize_ok_iff : forall m buf out,
  msg_serialize m buf = Ok out <->
  (34 + body_size (m_body m) + length (m_suffix m) <= length buf)%nat
  /\ Z.of_nat (34 + body_size (m_body m) + length (m_suffix m)) <= 65535
  /\ version_encodable (m_header m) = true /\ body_encodable (m_body m) = true
  /\ out = ser_header (m_header m) (body_type (m_body m)) (Z.of_nat (34 + body_size (m_body m) + length (m_suffix m)))
           ++ ser_body (m_body m) (slice 34 (34 + body_size (m_body m)) buf) ++ m_suffix m.
Proof.
  intros m buf out. unfold msg_serialize. cbv zeta. split.
  - intros H. do 6 (destr_if H; [discriminate|]). apply Ok_inj in H. subst out.
    repeat split; try lia; apply negb_false_iff; assumption.
  - intros (H1 & H2 & -> & -> & ->).
    rewrite !(proj2 (Nat.ltb_ge _ _)), (proj2 (Z.ltb_ge _ _)) by lia. reflexivity.
Qed.

Lemma msg_serialize_fits : forall m buf,
  (34 + body_size (m_body m) + length (m_suffix m) <= length buf)%nat ->
  Z.of_nat (34 + body_size (m_body m) + length (m_suffix m)) <= 65535 ->
  version_encodable (m_header m) = true -> body_encodable (m_body m) = true ->
  exists d, msg_serialize m buf = Ok d.
Proof. intros m buf H1 H2 H3 H4. eexists. apply msg_serialize_ok_iff. eauto 6. Qed.

Lemma msg_serialize_np : forall m buf, np (msg_serialize m buf).
Proof. intros m buf s H. unfold msg_serialize in H. cbv zeta in H. repeat destr_if H; discriminate. Qed.

Lemma msg_deserialize_ok_iff : forall buf h ty mlen m, de_header buf = (h, ty, mlen) ->
  (msg_deserialize buf = Ok m <->
   (34 <= length buf)%nat /\ msgtype_ok ty = true /\ 34 <= mlen /\ (Z.to_nat mlen <= length buf)%nat
   /\ m_header m = h
   /\ de_body ty (slice 34 (Z.to_nat mlen) buf) = Ok (m_body m)
   /\ tlvset_de (skipn (body_size (m_body m)) (slice 34 (Z.to_nat mlen) buf)) = Ok (m_suffix m)).
Proof.
  intros buf h ty mlen m Eh. unfold msg_deserialize. rewrite Eh. split.
  - intros H. do 4 (destr_if H; [discriminate|]).
    apply bind_ok in H. destruct H as (b & Eb & H). apply bind_ok in H. destruct H as (sf & Es & H).
    apply Ok_inj in H. subst m. cbn [m_header m_body m_suffix].
    repeat split; try assumption; try lia. apply negb_false_iff. assumption.
  - intros (H1 & H2 & H3 & H4 & <- & Eb & Es). rewrite H2. cbn [negb].
    rewrite !(proj2 (Nat.ltb_ge _ _)), (proj2 (Z.ltb_ge _ _)) by lia.
    rewrite Eb. cbn [res_bind]. rewrite Es. destruct m; reflexivity.
Qed.

Lemma msg_deserialize_header : forall buf m,
  msg_deserialize buf = Ok m -> m_header m = fst (fst (de_header buf)).
Proof.
  intros buf m H. destruct (de_header buf) as [[h ty] mlen] eqn:Eh.
  apply (msg_deserialize_ok_iff _ _ _ _ _ Eh) in H. apply H.
Qed.

Lemma msg_deserialize_valid : forall buf m, msg_deserialize buf = Ok m -> tlv_valid (m_suffix m).
Proof.
  intros buf m H. destruct (de_header buf) as [[h ty] mlen] eqn:Eh.
  apply (msg_deserialize_ok_iff _ _ _ _ _ Eh) in H. destruct H as (_ & _ & _ & _ & _ & _ & Es).
  apply tlvset_de_ok_iff in Es. destruct Es as [-> V]. exact V.
Qed.

Lemma de_body_np : forall ty b, np (de_body ty b).
Proof.
  intros ty b. unfold de_body. destruct (_ <? _)%nat; [apply np_err|].
  repeat (destruct (ty =? _); [first [apply np_ok|apply np_bind; [apply ts_de_np|intros; apply np_ok]]|]).
  apply np_ok.
Qed.

Lemma msg_deserialize_np : forall buf, np (msg_deserialize buf).
Proof.
  intros buf. unfold msg_deserialize. destruct (_ <? _)%nat; [apply np_err|].
  destruct (de_header buf) as [[h ty] mlen].
  destruct (negb _); [apply np_err|]. destruct (mlen <? 34); [apply np_err|]. destruct (_ <? _)%nat; [apply np_err|].
  apply np_bind; [apply de_body_np|]. intros b _. apply np_bind; [apply tlvset_de_np|intros; apply np_ok].
Qed.

(* C41_total: parsing ends in an error or in a message whose TLV set is valid *)
Lemma msg_deserialize_cases : forall buf,
  (exists e, msg_deserialize buf = Err e) \/
  (exists m, msg_deserialize buf = Ok m /\ tlv_valid (m_suffix m)).
Proof.
  intros buf. destruct (msg_deserialize buf) as [m|e|s] eqn:E.
  - right. eauto using msg_deserialize_valid.
  - left. eauto.
  - destruct (msg_deserialize_np _ _ E).
Qed.
