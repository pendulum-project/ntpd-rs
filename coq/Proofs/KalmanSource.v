(* C06 -- proofs about the source filter of Model/Kalman.v at the real numbers: the invariant
   of a source controller (covariance symmetric positive semidefinite, wander > 0, delay buffer
   non-negative) is kept by every event, and along every history every divisor met is
   non-zero and every square-root argument non-negative. *)
From V Require Import Model.Kalman Proofs.Common Proofs.Kalman.
From Coq Require Import Reals Lra.
Close Scope float_scope.  (* numerals below are reals *)
Open Scope R_scope.
Section RealSource.
Variable fs : R -> Z.
Variable rem : R -> R -> R.
Notation ROps := (Proofs.Kalman.ROps fs rem).

Definition nonnegl (l : list R) : Prop := Forall (fun x => 0 <= x) l.

(* the noise estimator: the buffered delays, or the fixed precision, are non-negative *)
Definition NoiseInv (n : noise R) : Prop :=
  match n with NBuf d _ => nonnegl d | NFixed p _ => 0 <= p end.

(* SourceFilter, the Kalman stage *)
Definition FInv (f : source_filter R) : Prop :=
  Inv (unc (f_state f)) /\ 0 < f_wander f /\ NoiseInv (f_noise f).

(* a source controller in either stage *)
Definition SInv (s : source_state R) : Prop :=
  match s with Initial f => NoiseInv (i_noise f) | Stable f => FInv f end.

(* what a measurement must satisfy to go into the delay buffer; [noise_preprocess] sees to it
   ([preprocess_ok]) *)
Definition delay_ok (n : noise R) (m : meas) : Prop :=
  match n with NBuf _ _ => (0 <= m_delay m)%Z | NFixed _ _ => True end.

Lemma fold_nonneg l acc : nonnegl l -> 0 <= acc -> 0 <= fold_left Rplus l acc.
Proof. revert acc; induction l; simpl; intros; auto. inversion H; subst. apply IHl; auto. lra. Qed.

Lemma buf_mean_sp d : sp (buf_mean ROps d) (fun _ => True).
Proof. unfold buf_mean. apply sp_div; auto. real_lits; lra. Qed.

Lemma buf_variance_sp d : sp (buf_variance ROps d) (fun v => 0 <= v).
Proof.
  unfold buf_variance. apply sp_then. apply buf_mean_sp. intros mean.
  apply sp_div. real_lits; lra. real_ops. real_lits.
  apply Rmult_le_pos; [|lra]. unfold sumlist. real_ops. real_lits. apply fold_nonneg; [|lra].
  apply Forall_map, Forall_forall. intros x _. apply Rle_0_sqr.
Qed.

Lemma Forall_upd_nth (P : R -> Prop) l n x : Forall P l -> P x -> Forall P (upd_nth l n x).
Proof. revert n; induction l; intros; simpl; auto. destruct n; inversion H; subst; constructor; auto. Qed.

(* [to_seconds_sp] for a postcondition that either holds of every number (left disjunct) or asks for
   a non-negative number of a non-negative duration (right disjunct) *)
Lemma to_seconds_nonneg d (Q : R -> Prop) :
  (forall x, (0 <= d)%Z -> 0 <= x -> Q x) -> (forall x, Q x \/ (0 <= d)%Z) -> sp (to_seconds ROps d) Q.
Proof. intros H1 H2. apply to_seconds_sp. destruct (H2 (IZR d / 4294967295)); auto using secs_nonneg. Qed.

Lemma noise_update_sp n m : NoiseInv n -> delay_ok n m -> sp (noise_update ROps n (m_delay m)) NoiseInv.
Proof.
  destruct n as [d i|p a]; cbn [noise_update NoiseInv delay_ok]; intros HN Hd.
  - eapply sp_bind. apply to_seconds_sp, secs_nonneg, Hd. intros s Hs. unfold buf_update. apply sp_ret. simpl. apply Forall_upd_nth; auto.
  - apply sp_ret; auto.
Qed.

Lemma noise_estimate_sp n : NoiseInv n -> sp (noise_estimate ROps n) (fun r => 0 <= r).
Proof.
  destruct n as [d i|p a]; cbn [noise_estimate NoiseInv]; intros HN.
  - eapply sp_bind. apply buf_variance_sp. intros v Hv. apply sp_div. real_lits; lra. real_ops. real_lits. lra.
  - apply sp_ret; auto.
Qed.

Lemma noise_is_outlier_sp n delay thr : sp (noise_is_outlier ROps n delay thr) (fun _ => True).
Proof.
  destruct n as [d i|p a]; cbn [noise_is_outlier].
  - apply sp_then. apply to_seconds_sp; auto. intros s.
    apply sp_then. apply buf_mean_sp. intros mean.
    eapply sp_bind. apply buf_variance_sp. intros v Hv.
    apply sp_then. apply sp_sqrt; auto. intros; apply sp_ret; auto.
  - apply sp_ret; auto.
Qed.

Lemma max_fold_nonneg l acc :
  nonnegl l -> (forall v, acc = Some v -> 0 <= v) ->
  forall r, fold_left (fun v1 v2 => if fisnan ROps v2 then v1 else
                   match v1 with Some v1 => Some (fmaxn ROps v2 v1) | None => Some v2 end) l acc = Some r -> 0 <= r.
Proof.
  revert acc; induction l; simpl; intros acc HL HA r Hr.
  - auto.
  - inversion HL; subst. eapply IHl; [auto | | exact Hr].
    intros v Hv. destruct acc as [v1|]; inversion Hv; subst; auto.
    apply Rle_trans with a; auto. apply Rmax_l.
Qed.

Lemma max_roundtrip_nonneg n samples mr : NoiseInv n -> max_roundtrip ROps n samples = Some mr -> 0 <= mr.
Proof.
  destruct n as [d i|p a]; cbn [max_roundtrip NoiseInv]; intros HN H.
  - eapply max_fold_nonneg; [ | | exact H]; [apply Forall_firstn, HN | discriminate].
  - inversion H; subst. apply Rle_trans with (Kalman.c1 ROps). real_lits; lra. apply Rmax_l.
Qed.

Lemma delay_mean_sp n : sp (delay_mean ROps n) (fun _ => True).
Proof. destruct n; cbn [delay_mean]. apply buf_mean_sp. apply sp_ret; auto. Qed.

Lemma cur_avg_sp d samples : sp (cur_avg ROps d samples) (fun _ => True).
Proof.
  unfold cur_avg. destruct (samples =? 0)%Z eqn:E. apply sp_ret; auto.
  apply sp_div; auto. apply not_0_IZR, Z.eqb_neq, E.
Qed.

Lemma icp_sp fuel samples p h : forall d,
  sp (icp_down ROps fuel d samples p h) (fun _ => True) /\ sp (icp_up ROps fuel d samples p h) (fun _ => True).
Proof.
  induction fuel; intros; cbn [icp_down icp_up]; split; try (apply sp_ret; auto);
    (apply sp_then; [apply cur_avg_sp | intros avg; apply sp_if; [apply IHfuel | apply sp_ret; auto]]).
Qed.
Lemma init_correct_period_sp fuel d samples per : sp (init_correct_period ROps fuel d samples per) (fun _ => True).
Proof.
  unfold init_correct_period. destruct (samples =? 0)%Z; [apply sp_ret; auto |].
  destruct per; [|apply sp_ret; auto]. div_step lra. div_step lra.
  apply sp_then; [apply icp_sp | intros d'; apply icp_sp].
Qed.

Lemma init_update_sp fuel f m per :
  NoiseInv (i_noise f) -> delay_ok (i_noise f) m ->
  sp (init_update ROps fuel f m per) (fun f' => NoiseInv (i_noise f')).
Proof.
  intros HN Hd. unfold init_update.
  apply sp_then. apply to_seconds_sp; auto. intros off0.
  apply sp_then.
  { destruct per; [|apply sp_ret; auto]. apply sp_then. apply cur_avg_sp. intros avg. div_step lra. div_step lra. apply sp_ret; auto. }
  intros off.
  eapply sp_bind. apply noise_update_sp; eauto. intros n' Hn'.
  destruct (buf_update (i_data f) (i_idx f) off) as [d i].
  apply sp_then. apply init_correct_period_sp. intros d'. apply sp_ret. auto.
Qed.

Lemma init_offset_steering_sp fuel f steer per :
  NoiseInv (i_noise f) -> sp (init_offset_steering ROps fuel f steer per) (fun f' => NoiseInv (i_noise f')).
Proof. intros. unfold init_offset_steering. apply sp_then. apply init_correct_period_sp. intros d. apply sp_ret; auto. Qed.

Lemma update_wander_sp cfg w score p weight :
  0 < w -> sp (update_wander ROps cfg w score p weight) (fun r => 0 < fst r).
Proof.
  intros. unfold update_wander.
  apply sp_if; [|apply sp_if].
  - div_step lra. apply sp_ret. real_ops. real_lits. simpl. lra.
  - apply sp_ret. real_ops. real_lits. simpl. lra.
  - apply sp_ret. auto.
Qed.

(* a power of two is positive unless the exponent is negative (then it is 0) *)
Lemma pow2_pos n : (0 < 2 ^ n)%Z \/ (n < 0)%Z.
Proof. destruct (Z_lt_le_dec n 0); [right | left; apply Z.pow_pos_nonneg]; lia. Qed.

(* PollInterval::as_duration: the shift is clamped to 0..62 *)
Lemma poll_as_duration_pos x : (0 < poll_as_duration x)%Z.
Proof.
  unfold poll_as_duration. apply Z.pow_pos_nonneg. lia.
  destruct (_ <? 0)%Z eqn:E1. lia. destruct (62 <? _)%Z. lia. apply Z.ltb_ge in E1. auto.
Qed.

Lemma update_poll_sp cfg poll score p weight mp : sp (update_poll ROps cfg poll score p weight mp) (fun _ => True).
Proof.
  unfold update_poll.
  eapply sp_bind with (Q := fun x => x <> 0).
  { apply to_seconds_sp, Rgt_not_eq, secs_pos, poll_as_duration_pos. }
  intros r Hr. apply sp_then. apply sp_div; auto. intros ratio.
  repeat apply sp_if; apply sp_ret; auto.
Qed.

Lemma filter_update_sp cfg f m per e :
  FInv f -> ts_sub (m_time m) (ktime (f_state f)) <> 0%Z -> delay_ok (f_noise f) m ->
  sp (filter_update ROps cfg f m per e) (fun r => FInv (fst r)).
Proof.
  intros (HI & Hw & HN) Ht Hd. unfold filter_update, with_last. cbn [f_state f_wander f_noise f_prec_score f_poll_score f_poll f_last f_outlier f_last_iter].
  destruct (is_before (m_time m) (ktime (f_state f))) eqn:Hb.
  - apply sp_ret. split; auto.
  - apply sp_then. { apply sp_if. apply sp_ret; auto. apply noise_is_outlier_sp. }
    intros outl. destruct outl.
    + apply sp_ret. split; auto.
    + eapply sp_bind. { apply progress_sp; auto. lra. }
      intros st (HI' & Hpos).
      assert (Hp : 0 < a00 (unc st)).
      { apply Hpos; auto. unfold is_before in Hb. apply Z.ltb_ge in Hb. lia. }
      eapply sp_bind. apply noise_update_sp; eauto. intros nz Hnz.
      apply sp_then. apply to_seconds_sp; auto. intros mdt.
      apply sp_then. apply to_seconds_sp; auto. intros value.
      eapply sp_bind. apply noise_estimate_sp; auto. intros r Hr.
      eapply sp_bind. { apply absorb_sp; auto. lra. }
      intros [[st' p] wt] (HI'' & _). cbn [fst snd] in HI''.
      eapply sp_bind. apply update_wander_sp with (w := f_wander f); auto.
      intros [w ps] Hw'. cbn [fst] in Hw'.
      apply sp_then. apply update_poll_sp.
      intros [poll pls]. apply sp_ret. cbn [fst]. split; auto.
Qed.

Lemma filter_offset_steering_sp fuel f steer per :
  FInv f -> sp (filter_offset_steering ROps fuel f steer per) FInv.
Proof.
  intros (HI & Hw & HN). unfold filter_offset_steering.
  eapply sp_bind. apply offset_steering_sp. intros st E. apply sp_ret. split; [|split]; simpl; auto. rewrite E; auto.
Qed.

Lemma filter_frequency_steering_sp fuel f time steer per :
  FInv f -> sp (filter_frequency_steering ROps fuel f time steer per) FInv.
Proof.
  intros (HI & Hw & HN). unfold filter_frequency_steering.
  eapply sp_bind. { apply frequency_steering_sp; auto. lra. }
  intros st HI'.
  apply sp_then. apply to_seconds_sp; auto. intros dt. apply sp_ret. split; [|split]; simpl; auto.
Qed.

Lemma preprocess_ok n m0 :
  delay_ok n (mkMeas (noise_preprocess n (m_delay m0)) (m_offset m0) (m_time m0) (m_rdelay m0) (m_rdisp m0)).
Proof. destruct n; simpl; auto. unfold Kalman.MIN_DELAY. lia. Qed.

Lemma nonnegl_zeros : nonnegl (repeat (Kalman.c0 ROps) 8).
Proof. unfold nonnegl. apply Forall_forall. intros x Hx. apply repeat_spec in Hx. subst. real_lits. lra. Qed.

Definition cfg_ok (cfg : algo_cfg R) : Prop := c_init_wander cfg <> 0.

(* the measurement is not taken at exactly the instant the filter state is at *)
Definition meas_ok (s : source_state R) (m : meas) : Prop :=
  match s with Stable f => ts_sub (m_time m) (ktime (f_state f)) <> 0%Z | Initial _ => True end.

Lemma source_measure_sp cfg s m0 per mono e :
  cfg_ok cfg -> SInv s -> meas_ok s m0 ->
  sp (source_measure ROps cfg s m0 per mono e) (fun r => SInv (fst r)).
Proof.
  intros Hc HS Hm. unfold source_measure.
  assert (Hd := preprocess_ok (state_noise s) m0).
  set (m := mkMeas _ _ _ _ _) in *.
  destruct s as [f|f]; simpl in HS, Hm, Hd.
  - eapply sp_bind. apply init_update_sp; eauto. intros f' Hf'.
    destruct (i_samples f' =? 8)%Z.
    + apply sp_then. apply buf_mean_sp. intros mean. eapply sp_bind. apply buf_variance_sp. intros var Hvar.
      eapply sp_bind. apply cp_sp. intros st (E & _).
      apply sp_ret. cbn [fst SInv]. split; [|split]; cbn [f_state f_wander f_noise]; auto.
      * rewrite E. unfold Inv. real_ops. real_lits. apply InvR_diag; auto. apply Rle_0_sqr.
      * real_ops. apply Rsqr_pos_lt in Hc. unfold Rsqr in Hc. auto.
    + apply sp_ret. auto.
  - apply sp_if.
    + apply sp_ret. cbn [fst SInv i_noise]. destruct HS as (_ & _ & HN).
      destruct (f_noise f); simpl in *; auto. apply nonnegl_zeros.
    + eapply sp_bind. apply filter_update_sp; eauto. intros [f' b] Hf'. apply sp_ret. auto.
Qed.

Lemma source_snapshot_sp cfg s :
  SInv s -> sp (source_snapshot ROps cfg s) (fun o => forall sn, o = Some sn -> 0 <= a00 (unc (sn_state sn))).
Proof.
  intros HS. unfold source_snapshot. destruct s as [f|f]; simpl in HS.
  - destruct (i_last f) as [l|]; [|apply sp_ret; discriminate].
    destruct (0 <? i_samples f)%Z eqn:E; [|apply sp_ret; discriminate].
    destruct (max_roundtrip ROps (i_noise f) (i_samples f)) as [mr|] eqn:Emr; [|apply sp_ret; discriminate].
    apply sp_then.
    { apply sp_div; auto. apply not_0_IZR. apply Z.ltb_lt in E. lia. }
    intros avg. apply sp_ret. intros sn H. inversion H; subst. simpl. eapply max_roundtrip_nonneg; eauto.
  - apply sp_then. apply delay_mean_sp. intros dm. apply sp_ret. intros sn H. inversion H; subst. simpl.
    destruct HS as ((_ & Ha & _) & _). auto.
Qed.

Lemma observe_sp cfg s : SInv s -> sp (observe ROps cfg s) (fun _ => True).
Proof.
  intros HS. unfold observe. eapply sp_bind. apply source_snapshot_sp; auto.
  intros [sn|] H; [|apply sp_ret; auto]. unfold snapshot_observe. apply sp_then. apply sp_sqrt; auto. intros; apply sp_ret; auto.
Qed.

Lemma source_offset_steering_sp cfg s steer per :
  SInv s -> sp (source_offset_steering ROps cfg s steer per) SInv.
Proof.
  intros HS. unfold source_offset_steering. cbv zeta. destruct s as [f|f]; simpl in HS.
  - eapply sp_bind. apply init_offset_steering_sp; auto. intros f' H'. apply sp_ret; auto.
  - eapply sp_bind. apply filter_offset_steering_sp; auto. intros f' H'. apply sp_ret; auto.
Qed.

Lemma source_frequency_steering_sp cfg s time steer per :
  SInv s -> sp (source_frequency_steering ROps cfg s time steer per) SInv.
Proof.
  intros HS. unfold source_frequency_steering. destruct s as [f|f]; simpl in HS.
  - apply sp_ret; auto.
  - eapply sp_bind. apply filter_frequency_steering_sp; auto. intros f' H'. apply sp_ret; auto.
Qed.

Lemma source_step_sp cfg per s ev :
  cfg_ok cfg -> SInv s -> (match ev with Measure m _ _ => meas_ok s m | _ => True end) ->
  sp (source_step ROps cfg per s ev) (fun r => SInv (fst r)).
Proof.
  intros Hc HS Hev. unfold source_step. destruct ev as [m mono e|steer|steer time].
  - eapply sp_bind. apply source_measure_sp; eauto. intros [s' b] HS'. cbn [fst] in HS'.
    destruct b. eapply sp_bind. apply source_snapshot_sp; auto. intros sn _. apply sp_ret; auto. apply sp_ret; auto.
  - eapply sp_bind. apply source_offset_steering_sp; auto. intros s' HS'. apply sp_ret; auto.
  - eapply sp_bind. apply source_frequency_steering_sp; auto. intros s' HS'. apply sp_ret; auto.
Qed.

(* whole histories: all side conditions met along the run, including those of the report
   (observe) made after every event *)
Fixpoint run_obligs (cfg : algo_cfg R) (per : option R) (s : source_state R) (evs : list (event R))
  : list (oblig R) :=
  match evs with
  | [] => []
  | ev :: rest =>
      let r := source_step ROps cfg per s ev in
      snd r ++ snd (observe ROps cfg (fst (fst r))) ++ run_obligs cfg per (fst (fst r)) rest
  end.
Fixpoint hist_ok (cfg : algo_cfg R) (per : option R) (s : source_state R) (evs : list (event R)) : Prop :=
  match evs with
  | [] => True
  | ev :: rest =>
      (match ev with Measure m _ _ => meas_ok s m | _ => True end)
      /\ hist_ok cfg per (fst (fst (source_step ROps cfg per s ev))) rest
  end.
Fixpoint run_states (cfg : algo_cfg R) (per : option R) (s : source_state R) (evs : list (event R))
  : list (source_state R) :=
  match evs with
  | [] => []
  | ev :: rest => let s' := fst (fst (source_step ROps cfg per s ev)) in s' :: run_states cfg per s' rest
  end.

Theorem welldefined_exact cfg per s evs :
  cfg_ok cfg -> SInv s -> hist_ok cfg per s evs ->
  Forall holds (run_obligs cfg per s evs) /\ Forall SInv (run_states cfg per s evs).
Proof.
  intros Hc. revert s. induction evs as [|ev rest IH]; intros s HS Hh; cbn [run_obligs run_states hist_ok] in *.
  - split; constructor.
  - destruct Hh as (Hev & Hrest).
    destruct (source_step_sp cfg per s ev Hc HS Hev) as (Hob & HS').
    destruct (observe_sp cfg _ HS') as (Hob2 & _).
    destruct (IH _ HS' Hrest) as (H1 & H2).
    cbv zeta. split.
    + apply Forall_app; split; auto. apply Forall_app; split; auto.
    + constructor; auto.
Qed.

Lemma initial_SInv n : NoiseInv n -> SInv (source_new ROps n).
Proof. intros; simpl; auto. Qed.

End RealSource.
