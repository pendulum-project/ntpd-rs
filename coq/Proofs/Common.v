(* Facts several proof files share.  About [res] (Base/Prelude): inversion of [res_bind] ([bind_ok], tactic
   [inv_bind]) and "does not panic" ([np]) composed along it; the machine-integer wrappers [wrap] and [to_signed];
   list lemmas the standard library of Coq 8.16 does not have. *)
From V Require Import Base.Prelude.
From Coq Require Import Permutation.

Lemma Ok_inj {A} (a b : A) : Ok a = Ok b -> a = b.
Proof. congruence. Qed.

Lemma bind_ok {A B} (r : res A) (k : A -> res B) b :
  res_bind r k = Ok b -> exists a, r = Ok a /\ k a = Ok b.
Proof. destruct r; cbn; intros H; try discriminate. eauto. Qed.

(* [H : res_bind r k = Ok b] becomes [E : r = Ok a] and [H : k a = Ok b] *)
Ltac inv_bind H :=
  match type of H with
  | res_bind _ _ = Ok _ =>
      let a := fresh "a" in let E := fresh "E" in
      apply bind_ok in H; destruct H as (a & E & H)
  end.

(* "does not panic"; [np_bind] composes it along [res_bind] *)
Definition np {A} (r : res A) : Prop := forall s, r <> Panic s.

Lemma np_ok A (a : A) : np (Ok a).
Proof. intros s H; discriminate. Qed.

Lemma np_err A e : np (@Err A e).
Proof. intros s H; discriminate. Qed.

Lemma np_bind A B (r : res A) (k : A -> res B) :
  np r -> (forall a, r = Ok a -> np (k a)) -> np (res_bind r k).
Proof.
  intros Hr Hk. destruct r; cbn [res_bind]; [apply Hk; reflexivity|apply np_err|].
  exfalso; eapply Hr; reflexivity.
Qed.

(* case split on the condition of an [if] at the head of the left side of equation [H] *)
Ltac destr_if H := match type of H with (if ?c then _ else _) = _ => destruct c eqn:? end.

Lemma pow2_double bits : 0 < bits -> 2 ^ bits = 2 * 2 ^ (bits - 1).
Proof. intros H. replace bits with (Z.succ (bits - 1)) at 1 by lia. apply Z.pow_succ_r. lia. Qed.

Lemma wrap_small bits z : 0 <= z < 2 ^ bits -> wrap bits z = z.
Proof. apply Z.mod_small. Qed.

Lemma wrap_add_wrap_r bits a b : wrap bits (a + wrap bits b) = wrap bits (a + b).
Proof. apply Zplus_mod_idemp_r. Qed.

Lemma wrap_add_wrap_l bits a b : wrap bits (wrap bits a + b) = wrap bits (a + b).
Proof. apply Zplus_mod_idemp_l. Qed.

Lemma wrap_sub_wrap bits a o d : wrap bits (wrap bits (a + o) - wrap bits (o + d)) = wrap bits (a - d).
Proof. unfold wrap. rewrite <- Zminus_mod. f_equal. lia. Qed.

Lemma to_signed_range bits u : 0 < bits -> - 2 ^ (bits - 1) <= to_signed bits u < 2 ^ (bits - 1).
Proof.
  intros Hb. unfold to_signed. pose proof (pow2_double bits Hb) as E.
  pose proof (Z.mod_pos_bound u (2 ^ bits) ltac:(lia)) as B.
  destruct (u mod 2 ^ bits <? 2 ^ (bits - 1)) eqn:C; lia.
Qed.

Lemma to_signed_small bits v : 0 < bits -> - 2 ^ (bits - 1) <= v < 2 ^ (bits - 1) -> to_signed bits v = v.
Proof.
  intros Hb H. unfold to_signed. pose proof (pow2_double bits Hb) as E. set (m := 2 ^ bits) in *.
  destruct (Z_lt_le_dec v 0).
  - replace (v mod m) with (v + m)
      by (rewrite <- (Z.mod_add v 1 m), Z.mul_1_l by lia; symmetry; apply Z.mod_small; lia).
    destruct (v + m <? _) eqn:C; lia.
  - rewrite (Z.mod_small v m) by lia. destruct (v <? _) eqn:C; lia.
Qed.

(* reading back a value that fits: [to_signed] inverts [wrap] on the signed range ... *)
Lemma to_signed_wrap bits v : 0 < bits -> - 2 ^ (bits - 1) <= v < 2 ^ (bits - 1) ->
  to_signed bits (v mod 2 ^ bits) = v.
Proof.
  intros Hb H. rewrite <- (to_signed_small bits v Hb H) at 2.
  unfold to_signed. rewrite Z.mod_mod by (apply Z.pow_nonzero; lia). reflexivity.
Qed.

(* ... and [wrap] inverts [to_signed] on the unsigned range *)
Lemma wrap_to_signed bits u : 0 <= u < 2 ^ bits -> to_signed bits u mod 2 ^ bits = u.
Proof.
  intros H. unfold to_signed. rewrite (Z.mod_small u) by assumption.
  destruct (u <? 2 ^ (bits - 1)); [apply Z.mod_small; assumption|].
  rewrite <- (Z.mod_add _ 1), Z.mul_1_l by lia. replace (u - 2 ^ bits + 2 ^ bits) with u by lia.
  apply Z.mod_small. assumption.
Qed.

Lemma land_pow2 x i : 0 <= i -> (Z.land x (2 ^ i) =? 0) = negb (Z.testbit x i).
Proof.
  intros Hi. destruct (Z.testbit x i) eqn:E; cbn.
  - apply Z.eqb_neq. intro H. apply (f_equal (fun y => Z.testbit y i)) in H.
    rewrite Z.land_spec, E, Z.pow2_bits_true, Z.bits_0 in H by lia. discriminate.
  - apply Z.eqb_eq, Z.bits_inj'. intros n Hn. rewrite Z.bits_0, Z.land_spec, Z.pow2_bits_eqb by lia.
    destruct (Z.eqb_spec i n); subst; rewrite ?E; auto using andb_false_r.
Qed.

Section Lists.
Context {A : Type}.

Lemma skipn_add (a n : nat) (l : list A) : skipn (a + n) l = skipn n (skipn a l).
Proof. revert l. induction a; intros [|x l]; cbn; auto using skipn_nil. Qed.

Lemma firstn_add (n m : nat) (l : list A) : firstn (n + m) l = firstn n l ++ firstn m (skipn n l).
Proof. revert l. induction n; intros [|x l]; cbn; rewrite ?firstn_nil; f_equal; auto. Qed.

Lemma firstn_app_len (a b : list A) n : length a = n -> firstn n (a ++ b) = a.
Proof. intros <-. rewrite firstn_app, Nat.sub_diag, firstn_all. cbn. apply app_nil_r. Qed.

Lemma skipn_app_len (a b : list A) n : length a = n -> skipn n (a ++ b) = b.
Proof. intros <-. rewrite skipn_app, Nat.sub_diag, skipn_all. reflexivity. Qed.

Lemma nth_error_skipn (l : list A) n i : nth_error (skipn n l) i = nth_error l (n + i).
Proof. revert l. induction n; intros [|x l]; cbn; auto. destruct i; reflexivity. Qed.

Lemma firstn_In n (l : list A) x : In x (firstn n l) -> In x l.
Proof. intros H. rewrite <- (firstn_skipn n l). apply in_or_app. auto. Qed.

Lemma Forall_firstn (P : A -> Prop) n l : Forall P l -> Forall P (firstn n l).
Proof. rewrite !Forall_forall. eauto using firstn_In. Qed.

Lemma Forall_skipn (P : A -> Prop) n l : Forall P l -> Forall P (skipn n l).
Proof.
  rewrite !Forall_forall. intros H x Hx. apply H. rewrite <- (firstn_skipn n l). apply in_or_app. auto.
Qed.

Lemma filter_filter_sub (f g : A -> bool) l :
  (forall x, f x = true -> g x = true) -> filter f (filter g l) = filter f l.
Proof.
  intros H. induction l as [|a l IH]; cbn; [reflexivity|].
  destruct (g a) eqn:G; cbn; rewrite IH; [reflexivity|].
  destruct (f a) eqn:F; [|reflexivity]. apply H in F. congruence.
Qed.

Lemma existsb_eqb_In (eqb : A -> A -> bool) : (forall x y, eqb x y = true <-> x = y) ->
  forall a l, existsb (eqb a) l = true <-> In a l.
Proof.
  intros H a l. rewrite existsb_exists. split.
  - intros (y & Hy & E). apply H in E. subst. exact Hy.
  - intros Hin. exists a. split; [exact Hin|apply H; reflexivity].
Qed.

Lemma NoDup_snoc (l : list A) x : ~ In x l -> NoDup l -> NoDup (l ++ [x]).
Proof. intros Hx Hl. apply (NoDup_Add (Add_app x l [])). rewrite app_nil_r. constructor; assumption. Qed.

Lemma existsb_map {B} (f : B -> bool) (g : A -> B) l :
  existsb f (map g l) = existsb (fun x => f (g x)) l.
Proof. induction l; cbn; congruence. Qed.

Lemma existsb_perm (f : A -> bool) l1 l2 : Permutation l1 l2 -> existsb f l1 = existsb f l2.
Proof.
  induction 1; cbn; try congruence. destruct (f x), (f y); reflexivity.
Qed.

End Lists.
