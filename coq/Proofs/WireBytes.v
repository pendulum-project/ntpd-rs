(* Byte-level lemmas for the PTP wire model: big-endian encoding and decoding, packing by [Z.lor],
   tables over the 256 byte values, slices of concatenations, timestamps and port identities.
   Round trips are named as in the C41 theorems, by the order of the two steps: [x_ser_de] says
   that what is written reads back as the value, [x_de_ser] that what is read is written back as
   the bytes.  For a function f of the model that returns a [res]: [f_ok] says that f returns Ok,
   [f_ok_iff] exactly when, [f_inv] what follows from [f .. = Ok _], [f_np] that f does not panic.
   For a value, [.._ok] says that the model's range predicate of that name holds of it
   ([is_byte], [bytes_ok], [acc_ok], [tsrc_ok], [msgtype_ok], ...). *)
From V Require Import Model.PtpWire Proofs.Common.
From Coq Require Import ZifyBool.
(* in force in every file that imports this one, unless ZifyBool is required after it, which
   resets the hook: such files require ZifyBool first *)
Ltac Zify.zify_post_hook ::= Z.div_mod_to_equations.

(* list and parity facts the TLV-set and CSPTP proofs use *)
Lemma odd_of_nat : forall n, Z.odd (Z.of_nat n) = Nat.odd n.
Proof.
  fix IH 1. intros [|[|n]]; [reflexivity|reflexivity|].
  replace (Z.of_nat (S (S n))) with (Z.of_nat n + 2) by lia.
  rewrite Z.odd_add, IH. cbn [Z.odd]. rewrite xorb_false_r.
  change (Nat.odd (S (S n))) with (negb (Nat.even (S (S n)))). cbn [Nat.even]. reflexivity.
Qed.

Lemma filter_length_mono : forall {A} (f g : A -> bool) l,
  (forall x, g x = true -> f x = true) -> (length (filter g l) <= length (filter f l))%nat.
Proof.
  intros A f g l Hsub. induction l as [|a r IH]; cbn; [lia|]. destruct (g a) eqn:Eg.
  - rewrite (Hsub _ Eg). cbn. lia.
  - destruct (f a); cbn; lia.
Qed.

(* when g implies f and both select equally many elements of l, f implies g on l *)
Lemma filter_same_count : forall {A} (f g : A -> bool) l,
  (forall x, g x = true -> f x = true) ->
  length (filter f l) = length (filter g l) ->
  forall x, In x l -> f x = true -> g x = true.
Proof.
  intros A f g l Hsub. induction l as [|a r IH]; intros Hlen x Hin Hf; [destruct Hin|].
  pose proof (filter_length_mono f g r Hsub) as Hle.
  cbn in Hlen. destruct (f a) eqn:Ef; destruct (g a) eqn:Eg; cbn in Hlen.
  - destruct Hin as [->|Hin]; [assumption|]. apply IH; auto.
  - lia.
  - rewrite (Hsub _ Eg) in Ef. discriminate.
  - destruct Hin as [->|Hin]; [congruence|]. apply IH; auto.
Qed.

Lemma existsb_count : forall {A} (f : A -> bool) l, existsb f l = true -> (1 <= length (filter f l))%nat.
Proof.
  intros A f l. induction l as [|a r IH]; cbn; [discriminate|].
  destruct (f a); cbn; [lia|]. exact IH.
Qed.

Lemma be_length : forall n v, length (be n v) = n.
Proof. induction n; intros; cbn; [reflexivity|]. rewrite app_length, IHn. cbn. lia. Qed.

Lemma unbe_app1 : forall l x, unbe (l ++ [x]) = unbe l * 256 + x.
Proof. intros. unfold unbe. rewrite fold_left_app. reflexivity. Qed.

Lemma unbe_be : forall n v, unbe (be n v) = v mod 256 ^ Z.of_nat n.
Proof.
  induction n; intros v.
  - cbn. rewrite Z.mod_1_r. reflexivity.
  - cbn [be]. rewrite unbe_app1, IHn.
    rewrite Nat2Z.inj_succ, Z.pow_succ_r by lia.
    pose proof (Z.pow_pos_nonneg 256 (Z.of_nat n) ltac:(lia) ltac:(lia)) as P.
    rewrite (Z.rem_mul_r v 256 (256 ^ Z.of_nat n)) by lia. ring.
Qed.

(* where [be n v] has been computed into its n bytes: read them back as [v mod 256 ^ n] *)
Ltac unbe_rewrite v n :=
  let U := fresh "U" in pose proof (unbe_be n v) as U; cbn [be app] in U; rewrite ?U; clear U.

Lemma unbe_be_small : forall n v, 0 <= v < 256 ^ Z.of_nat n -> unbe (be n v) = v.
Proof. intros. rewrite unbe_be. apply Z.mod_small. assumption. Qed.

Lemma be_bytes_ok : forall n v, bytes_ok (be n v).
Proof.
  induction n; intros; cbn; [constructor|].
  apply Forall_app. split; [apply IHn|]. constructor; [|constructor]. unfold is_byte. lia.
Qed.

Lemma unbe_range : forall l, bytes_ok l -> 0 <= unbe l < 256 ^ Z.of_nat (length l).
Proof.
  induction l using rev_ind; intros H.
  - cbn. lia.
  - apply Forall_app in H. destruct H as [H1 H2]. inversion H2; subst. unfold is_byte in *.
    rewrite unbe_app1, app_length. cbn [length]. rewrite Nat.add_1_r, Nat2Z.inj_succ, Z.pow_succ_r by lia.
    specialize (IHl H1). lia.
Qed.

Lemma be_unbe : forall n l, bytes_ok l -> length l = n -> be n (unbe l) = l.
Proof.
  intros n l H <-. induction l as [|x l IHl] using rev_ind; [reflexivity|].
  apply Forall_app in H. destruct H as [H1 H2]. inversion H2; subst. unfold is_byte in *.
  rewrite app_length. cbn [length]. rewrite Nat.add_1_r. cbn [be]. rewrite unbe_app1.
  replace ((unbe l * 256 + x) / 256) with (unbe l) by lia.
  replace ((unbe l * 256 + x) mod 256) with x by lia.
  rewrite IHl by assumption. reflexivity.
Qed.

(* packing: the bits of [h * 2 ^ n] and of [l < 2 ^ n] are disjoint, so [Z.lor] adds them *)
Lemma lor_shifted : forall h l n, 0 <= n -> 0 <= l < 2 ^ n -> Z.lor (h * 2 ^ n) l = h * 2 ^ n + l.
Proof.
  intros h l n Hn Hl.
  assert (Z.land (h * 2 ^ n) l = 0) as D.
  { apply Z.bits_inj'. intros m Hm. rewrite Z.land_spec, Z.bits_0. destruct (Z.lt_ge_cases m n).
    - rewrite Z.mul_pow2_bits_low by assumption. reflexivity.
    - rewrite <- (Z.mod_small l (2 ^ n)), Z.mod_pow2_bits_high by lia. apply andb_false_r. }
  rewrite Z.add_nocarry_lxor, Z.lxor_lor by exact D. reflexivity.
Qed.

Lemma land_15 : forall x, Z.land x 15 = x mod 16.
Proof. intros x. exact (Z.land_ones x 4 ltac:(lia)). Qed.

(* an equation between functions of a byte is checked on the 256 values: the table is evaluated *)
Lemma byte_eq : forall f g : Z -> Z,
  forallb (fun x => f x =? g x) range256 = true -> forall x, 0 <= x < 256 -> f x = g x.
Proof.
  intros f g H x Hx. rewrite forallb_forall in H. apply Z.eqb_eq, H, in_map_iff.
  exists (Z.to_nat x). split; [lia|]. apply in_seq. lia.
Qed.

Lemma slice_full : forall b (x : bytes), length x = b -> slice 0 b x = x.
Proof. intros b x <-. unfold slice. rewrite Nat.sub_0_r. apply firstn_all. Qed.

Lemma slice_app_l : forall a b (x r : bytes), (b <= length x)%nat -> slice a b (x ++ r) = slice a b x.
Proof.
  intros a b x r H. unfold slice. rewrite skipn_app, firstn_app, skipn_length.
  replace (b - a - (length x - a))%nat with 0%nat by lia. apply app_nil_r.
Qed.

Lemma slice_app_r : forall a b (p x : bytes), length p = a -> slice a b (p ++ x) = slice 0 (b - a) x.
Proof.
  intros a b p x H. unfold slice. rewrite (skipn_app_len p x a H), Nat.sub_0_r. reflexivity.
Qed.

Lemma slice_0 : forall (x r : bytes) b, length x = b -> slice 0 b (x ++ r) = x.
Proof. intros x r b H. rewrite slice_app_l by lia. apply slice_full. exact H. Qed.

Lemma slice_mid : forall (p x r : bytes) a b,
  length p = a -> length x = (b - a)%nat -> slice a b (p ++ x ++ r) = x.
Proof. intros p x r a b Hp Hx. rewrite slice_app_r by exact Hp. apply slice_0. exact Hx. Qed.

Lemma byte_app_l : forall i (x r : bytes), (i < length x)%nat -> byte i (x ++ r) = byte i x.
Proof. intros. apply app_nth1. assumption. Qed.

Lemma slice_join : forall a b c (l : bytes), (a <= b <= c)%nat -> slice a b l ++ slice b c l = slice a c l.
Proof.
  intros a b c l H. unfold slice. replace (c - a)%nat with ((b - a) + (c - b))%nat by lia.
  rewrite firstn_add, <- skipn_add. replace (a + (b - a))%nat with b by lia. reflexivity.
Qed.

(* a slice written out: the list of its bytes, each as [byte i l].  With this a buffer of known
   length computes position by position without being taken apart *)
Lemma slice_explicit : forall (l : bytes) a b, (b <= length l)%nat ->
  slice a b l = map (fun i => byte i l) (seq a (b - a)).
Proof.
  induction l as [|x r IH]; intros a b H.
  - replace b with 0%nat by (cbn in H; lia). destruct a; reflexivity.
  - destruct b as [|b]; [destruct a; reflexivity|]. cbn [length] in H. destruct a as [|a].
    + specialize (IH 0%nat b ltac:(lia)). unfold slice in *. cbn [skipn Nat.sub firstn seq map] in *.
      rewrite Nat.sub_0_r in IH. rewrite IH, <- seq_shift, map_map. reflexivity.
    + change (slice (S a) (S b) (x :: r)) with (slice a b r). rewrite IH by lia. cbn [Nat.sub]. rewrite <- seq_shift, map_map. reflexivity.
Qed.

Lemma byte_mid : forall (p r : bytes) x i, length p = i -> byte i (p ++ x :: r) = x.
Proof. intros p r x i H. unfold byte. rewrite app_nth2 by lia. rewrite H, Nat.sub_diag. reflexivity. Qed.

Lemma slice_length : forall a b (l : bytes), (b <= length l)%nat -> (a <= b)%nat -> length (slice a b l) = (b - a)%nat.
Proof. intros. unfold slice. rewrite firstn_length, skipn_length. lia. Qed.

Lemma slice_bytes : forall a b l, bytes_ok l -> bytes_ok (slice a b l).
Proof. intros. unfold slice, bytes_ok. apply Forall_firstn, Forall_skipn. assumption. Qed.

Lemma byte_ok : forall i l, bytes_ok l -> is_byte (byte i l).
Proof.
  intros i l H. unfold byte. destruct (Nat.lt_ge_cases i (length l)).
  - unfold bytes_ok in H. rewrite Forall_forall in H. apply H. apply nth_In. assumption.
  - rewrite nth_overflow by assumption. unfold is_byte. lia.
Qed.

(* so a byte string of known length is the list of its bytes, each a byte *)
Lemma explicit_bytes : forall n (d : bytes), bytes_ok d -> length d = n ->
  exists B : nat -> Z, (forall i, is_byte (B i)) /\ d = map B (seq 0 n).
Proof.
  intros n d Hb Hl. exists (fun i => byte i d). split; [intros i; apply byte_ok; exact Hb|].
  rewrite <- (Nat.sub_0_r n), <- slice_explicit by lia. symmetry. apply slice_full. exact Hl.
Qed.

Lemma ts_ser_length : forall t, length (ts_ser t) = 10%nat.
Proof. intros. unfold ts_ser. rewrite app_length, !be_length. reflexivity. Qed.

Lemma ts_ser_de : forall t r, ts_ok t -> ts_de (ts_ser t ++ r) = Ok t.
Proof.
  intros [s n] r [Hs Hn]. cbn [ts_secs ts_nanos] in *. unfold ts_de.
  rewrite app_length, ts_ser_length. cbn [Nat.ltb Nat.leb plus].
  unfold ts_ser. cbn [ts_secs ts_nanos]. rewrite <- app_assoc.
  rewrite (slice_mid (be 6 s) (be 4 n) r 6 10) by (rewrite be_length; reflexivity).
  rewrite (slice_0 (be 6 s)) by apply be_length.
  rewrite !unbe_be_small by (cbn; lia).
  replace (n >? 1000000000) with false by lia. reflexivity.
Qed.

Lemma ts_ser_de_exact : forall t, ts_ok t -> ts_de (ts_ser t) = Ok t.
Proof. intros. rewrite <- (app_nil_r (ts_ser t)). apply ts_ser_de. assumption. Qed.

Lemma ts_de_np : forall b, np (ts_de b).
Proof. intros b s H. unfold ts_de in H. repeat destr_if H; discriminate. Qed.

Lemma ts_ser_bytes : forall t, bytes_ok (ts_ser t).
Proof. intros. unfold ts_ser. apply Forall_app. split; apply be_bytes_ok. Qed.

(* the other direction: ten bytes that parse as a timestamp are what that timestamp is written as *)
Lemma ts_de_ser : forall d t, bytes_ok d -> length d = 10%nat -> ts_de d = Ok t -> ts_ser t = d /\ ts_ok t.
Proof.
  intros d t Hb L H. unfold ts_de in H. rewrite L in H. cbn [Nat.ltb Nat.leb] in H.
  destr_if H; [discriminate|]. apply Ok_inj in H. subst t.
  pose proof (unbe_range _ (slice_bytes 0 6 d Hb)) as R6. pose proof (unbe_range _ (slice_bytes 6 10 d Hb)) as R4.
  rewrite slice_length in R6, R4 by lia. split.
  - unfold ts_ser. cbn [ts_secs ts_nanos].
    rewrite (be_unbe 6), (be_unbe 4) by first [apply slice_bytes; exact Hb | apply slice_length; lia].
    rewrite slice_join by lia. apply slice_full. exact L.
  - unfold ts_ok. cbn [ts_secs ts_nanos]. change (256 ^ Z.of_nat (6 - 0)) with (2 ^ 48) in R6. lia.
Qed.

Lemma pid_ser_length : forall p, pid_ok p -> length (pid_ser p) = 10%nat.
Proof. intros p (_ & L & _). unfold pid_ser. rewrite app_length, be_length, L. reflexivity. Qed.

Lemma pid_ser_de : forall p, pid_ok p -> pid_de (pid_ser p) = p.
Proof.
  intros [ck pt] (_ & L & Hp). cbn [pid_clock pid_port] in *. unfold pid_de, pid_ser. cbn [pid_clock pid_port].
  rewrite (slice_0 ck) by exact L. rewrite <- (app_nil_r (be 2 pt)), (slice_mid ck (be 2 pt) [] 8 10) by (rewrite ?be_length; auto).
  rewrite unbe_be_small by exact Hp. reflexivity.
Qed.

Lemma pid_de_ser : forall d, bytes_ok d -> length d = 10%nat -> pid_ser (pid_de d) = d /\ pid_ok (pid_de d).
Proof.
  intros d Hb L. unfold pid_ser, pid_de, pid_ok. cbn [pid_clock pid_port].
  pose proof (unbe_range _ (slice_bytes 8 10 d Hb)) as R. rewrite slice_length in R by lia. split.
  - rewrite (be_unbe 2) by first [apply slice_bytes; exact Hb | apply slice_length; lia].
    rewrite slice_join by lia. apply slice_full. exact L.
  - split; [apply slice_bytes; exact Hb|]. split; [apply slice_length; lia|exact R].
Qed.
