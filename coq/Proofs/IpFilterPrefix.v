(* C31, part 2: prefixes as intervals inside nibble blocks; the coverage sweep. *)
From V Require Import Model.IpFilter Gen.ConstIpFilter Proofs.IpFilterArith.

Lemma psize_short : forall len, len <= 4 -> psize len = 2 ^ (4 - len) * 2 ^ 124.
Proof. intros. unfold psize. rewrite <- Z.pow_add_r by lia. f_equal. lia. Qed.

(* a prefix of at most 4 bits starts at a nibble boundary and covers a run of nibbles of the node *)
Lemma short_prefix_run : forall e, wf_entry e -> snd e <= 4 ->
  fst e = top_nibble (fst e) * 2 ^ 124 /\ top_nibble (fst e) + 2 ^ (4 - snd e) <= 16.
Proof.
  intros [v len] (Hv & Hl & Hm) H4. cbn [fst snd] in *.
  rewrite top_nibble_div by exact Hv. rewrite psize_short in Hm by exact H4.
  assert (HL : 16 = 2 ^ len * 2 ^ (4 - len)) by (rewrite <- Z.pow_add_r by lia; replace (len + (4 - len)) with 4 by lia; reflexivity).
  assert (Hk : 0 < 2 ^ (4 - len)) by (apply Z.pow_pos_nonneg; lia).
  unfold in128 in Hv. name_block B. set (k := 2 ^ (4 - len)) in *. set (L := 2 ^ len) in *. clearbody k L.
  apply Z.mod_divide in Hm; [| nia]. destruct Hm as [m ->].
  rewrite Z.mul_assoc, Z.div_mul by lia. split. reflexivity.
  assert (m < L) by (apply (Z.mul_lt_mono_pos_r (k * B)); nia). nia.
Qed.

Lemma short_prefix_contains : forall e a, wf_entry e -> snd e <= 4 -> in128 a ->
  econtains a e = (top_nibble (fst e) <=? top_nibble a) && (top_nibble a <? top_nibble (fst e) + 2 ^ (4 - snd e)).
Proof.
  intros [v len] a He H4 Ha. destruct (short_prefix_run _ He H4) as [Hv _]. cbn [fst snd] in *.
  set (h := top_nibble v) in *. clearbody h. subst v.
  unfold econtains. cbn [fst snd]. rewrite psize_short, <- Z.mul_add_distr_r by exact H4.
  rewrite block_le, block_lt, <- top_nibble_div by (reflexivity || exact Ha). reflexivity.
Qed.

Lemma pow_split_124 : forall len, 4 < len <= 128 -> 2 ^ 124 = psize len * 2 ^ (len - 4).
Proof. intros. unfold psize. rewrite <- Z.pow_add_r by lia. f_equal. lia. Qed.

Lemma psize_shift : forall len, 4 < len <= 128 -> psize (len - 4) = 16 * psize len.
Proof. intros. unfold psize. replace (128 - (len - 4)) with (4 + (128 - len)) by lia. rewrite Z.pow_add_r by lia. reflexivity. Qed.

(* a prefix of more than 4 bits lies inside one nibble block *)
Lemma long_prefix_block : forall e, wf_entry e -> 4 < snd e ->
  exists t, fst e mod 2 ^ 124 = psize (snd e) * t /\ 0 <= t /\ psize (snd e) * t + psize (snd e) <= 2 ^ 124.
Proof.
  intros [v len] (Hv & Hl & Hm) H4. cbn [fst snd] in *.
  pose proof (psize_pos len Hl) as HP. rewrite (pow_split_124 len) by lia.
  set (P := psize len) in *. set (Q := 2 ^ (len - 4)).
  assert (HQ : 0 < Q) by (apply Z.pow_pos_nonneg; lia).
  apply Z.mod_divide in Hm; [| lia]. destruct Hm as [m ->].
  rewrite (Z.mul_comm m P). rewrite Z.mul_mod_distr_l by lia.
  exists (m mod Q). pose proof (Z.mod_pos_bound m Q HQ). split; [reflexivity | split; [lia | nia]].
Qed.

Lemma shift_entry_eq : forall e, 4 < snd e <= 128 -> shift_entry e = (16 * (fst e mod 2 ^ 124), snd e - 4).
Proof.
  intros [v len] H. unfold shift_entry. cbn [fst snd] in *. rewrite shl128_4. f_equal.
  apply Z.mod_small. change (2 ^ 8) with 256. lia.
Qed.

Lemma shift_entry_wf : forall e, wf_entry e -> 4 < snd e -> wf_entry (shift_entry e).
Proof.
  intros e He H4. destruct (long_prefix_block e He H4) as (t & Ht & Ht0 & Hb).
  destruct e as [v len]. destruct He as (Hv & Hl & Hm). cbn [fst snd] in *.
  rewrite shift_entry_eq by (cbn [snd]; lia). unfold wf_entry, in128. cbn [fst snd].
  rewrite psize_shift, Ht by lia. pose proof (psize_pos len Hl).
  set (P := psize len) in *. clearbody P. name_block B. repeat split; try nia.
  replace (16 * (P * t)) with (t * (16 * P)) by ring. apply Z_mod_mult.
Qed.

(* such a prefix contains only addresses of its own nibble, and there the question is the same
   one level down *)
Lemma long_prefix_contains : forall e a, wf_entry e -> 4 < snd e -> in128 a ->
  econtains a e = (top_nibble a =? top_nibble (fst e)) && econtains (shl 128 a 4) (shift_entry e).
Proof.
  intros e a He H4 Ha. destruct (long_prefix_block e He H4) as (t & Ht & Ht0 & Hb).
  destruct e as [v len]. destruct He as (Hv & Hl & Hm). cbn [fst snd] in *.
  rewrite !top_nibble_div, shift_entry_eq, shl128_4 by (assumption || cbn [snd]; lia).
  unfold econtains. cbn [fst snd]. rewrite psize_shift, Ht by lia. pose proof (psize_pos len Hl).
  pose proof (Z.div_mod v (2 ^ 124) ltac:(discriminate)) as Dv. rewrite Ht in Dv.
  pose proof (Z.div_mod a (2 ^ 124) ltac:(discriminate)) as Da.
  pose proof (Z.mod_pos_bound a (2 ^ 124) eq_refl).
  set (P := psize len) in *. clearbody P. name_block B.
  set (hv := v / B) in *. set (ha := a / B) in *. set (la := a mod B) in *. clearbody hv ha la. subst v a.
  destruct (Z.eqb_spec ha hv) as [-> | Hne]; cbn [andb].
  - (* same nibble: both sides compare la with P * t, the right one scaled by 16 *) lia.
  - (* another nibble: a is outside the block of v, which holds the whole prefix *) nia.
Qed.

Definition entry_le (a b : entry) : Prop := fst a < fst b \/ (fst a = fst b /\ snd a <= snd b).

Lemma entry_leb_le : forall a b, entry_leb a b = true <-> entry_le a b.
Proof. intros. unfold entry_leb, entry_le. lia. Qed.

Lemma entry_le_refl : forall a, entry_le a a.
Proof. intros. unfold entry_le. lia. Qed.

Lemma entry_le_trans : forall a b c, entry_le a b -> entry_le b c -> entry_le a c.
Proof. unfold entry_le. intros. lia. Qed.

Lemma entry_le_total : forall a b, entry_leb a b = false -> entry_le b a.
Proof. intros a b. unfold entry_leb, entry_le. lia. Qed.

Lemma shift_entry_le : forall e1 e2, in128 (fst e1) -> in128 (fst e2) ->
  4 < snd e1 <= 128 -> 4 < snd e2 <= 128 ->
  top_nibble (fst e1) = top_nibble (fst e2) -> entry_le e1 e2 ->
  entry_le (shift_entry e1) (shift_entry e2).
Proof.
  intros [v1 l1] [v2 l2] H1 H2 L1 L2. cbn [fst snd] in *.
  rewrite !top_nibble_div, !shift_entry_eq by assumption. unfold entry_le. cbn [fst snd].
  pose proof (Z.div_mod v1 (2 ^ 124) ltac:(discriminate)). pose proof (Z.div_mod v2 (2 ^ 124) ltac:(discriminate)).
  intros HN. rewrite HN in *. lia.
Qed.

Lemma sweep_step_spec : forall i e last, 0 <= i < 16 -> wf_entry e -> 4 < snd e -> top_nibble (fst e) = i ->
  sweep_step (shl 128 i TOP_SHIFT) last e =
  if fst e mod 2 ^ 124 <=? last then Z.max last (fst e mod 2 ^ 124 + psize (snd e)) else last.
Proof.
  intros i e last Hi He H4 Hn. destruct (long_prefix_block e He H4) as (t & Ht & Ht0 & Hb).
  destruct e as [v len]. destruct He as (Hv & Hl & Hm). cbn [fst snd] in *.
  unfold sweep_step. cbn [fst snd]. rewrite shl128_top, shl128_psize by lia.
  rewrite top_nibble_div in Hn by auto. subst i.
  pose proof (psize_pos len Hl) as HP. set (P := psize len) in *. clearbody P.
  replace (v - v / 2 ^ 124 * 2 ^ 124) with (v mod 2 ^ 124) by (rewrite Z.mod_eq by discriminate; ring).
  rewrite Ht. unfold wrap. name_block B. rewrite !Z.mod_small by nia. reflexivity.
Qed.

(* what one step adds to the covered range lies in the prefix it looked at *)
Lemma sweep_step_covers : forall i e last x, 0 <= i < 16 -> wf_entry e -> 4 < snd e -> top_nibble (fst e) = i ->
  last <= x < sweep_step (shl 128 i TOP_SHIFT) last e -> econtains (i * 2 ^ 124 + x) e = true.
Proof.
  intros i e last x Hi He H4 Hn Hx. rewrite sweep_step_spec in Hx by assumption.
  rewrite top_nibble_div in Hn by apply He. unfold econtains.
  rewrite (Z.div_mod (fst e) (2 ^ 124)), Hn at 1 2 by discriminate.
  destruct (Z.leb_spec (fst e mod 2 ^ 124) last); lia.
Qed.

Lemma sweep_fold_sound : forall i seg, 0 <= i < 16 ->
  (forall e, In e seg -> wf_entry e /\ 4 < snd e /\ top_nibble (fst e) = i) ->
  forall last x, 0 <= x < fold_left (sweep_step (shl 128 i TOP_SHIFT)) seg last ->
  x < last \/ exists e, In e seg /\ econtains (i * 2 ^ 124 + x) e = true.
Proof.
  intros i seg Hi. induction seg as [| e seg IH]; intros Hseg last x Hx; simpl in Hx.
  - left. lia.
  - destruct (IH (fun e' H => Hseg e' (or_intror H)) _ x Hx) as [Hlt | (e' & Hin & Hc)].
    2: { right. exists e'. split; [right; exact Hin | exact Hc]. }
    destruct (Z.lt_ge_cases x last); [left; assumption |].
    right. exists e. split; [left; reflexivity |].
    destruct (Hseg e (or_introl eq_refl)) as (He & H4 & Hn). apply (sweep_step_covers i e last); auto.
Qed.

Lemma sweep_sound : forall i seg a, 0 <= i < 16 -> in128 a -> top_nibble a = i ->
  (forall e, In e seg -> wf_entry e /\ 4 < snd e /\ top_nibble (fst e) = i) ->
  2 ^ TOP_SHIFT <= sweep i seg ->
  exists e, In e seg /\ econtains a e = true.
Proof.
  intros i seg a Hi Ha Hn Hseg Hs. unfold TOP_SHIFT in Hs. rewrite top_nibble_div in Hn by exact Ha.
  rewrite (Z.div_mod a (2 ^ 124)), Hn, Z.mul_comm by discriminate.
  pose proof (Z.mod_pos_bound a (2 ^ 124) eq_refl).
  destruct (sweep_fold_sound i seg Hi Hseg 0 (a mod 2 ^ 124)) as [Hlt | H1]; [fold (sweep i seg) | | exact H1]; lia.
Qed.
