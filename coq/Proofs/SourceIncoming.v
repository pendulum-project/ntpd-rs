(* handle_incoming: what is accepted (C08), what an NTS source lets through (C07),
   kiss codes (C09). *)
From V Require Import Model.Source Gen.ConstSource Proofs.SourceBase.
Open Scope Z_scope.

(* Nothing here divides: the hook is set because [lia] is markedly cheaper with its
   clean-up pass when boolean tests sit in the context, as in [dispatch_outcome].  The files
   that import this one rely on it for [mod] and [/] (reach register, request sizes). *)
Ltac Zify.zify_post_hook ::= Z.div_mod_to_equations.

(* splits a conjunction into its members without introducing the hypotheses of a member *)
Ltac splits := repeat match goal with |- _ /\ _ => split end.

(* the range of PollInterval(i8), and limits strictly inside it *)
Definition in_i8 (z : Z) : Prop := -128 <= z <= 127.
Definition cfg_ok (c : cfg) : Prop := -128 < c_min c /\ c_min c <= c_max c /\ c_max c < 127.

(* PollInterval::inc: never above the maximum; on an i8 value it does not decrease below
   the maximum, and is the successor below 127 *)
Lemma poll_inc_spec : forall c p,
  poll_inc c p <= c_max c /\
  (in_i8 p -> (-128 <= c_max c -> -128 <= poll_inc c p) /\ (p <= c_max c -> p <= poll_inc c p)
              /\ (p < 127 -> poll_inc c p = Z.min (p + 1) (c_max c))).
Proof. intros c p. unfold poll_inc, sat_i8, in_i8. lia. Qed.

(* the state handed to the branches: only the version may have moved *)
Definition vstate (s : st) (p : pkt) : st := set_ver s (ver_after_valid (s_ver s) p).

(* what [dispatch] can do; the branches that ignore the packet are one case *)
Inductive outcome (c : cfg) (s : st) (id : Z) (p : pkt) : st -> list action -> Prop :=
| O_ignored : outcome c s id p (vstate s p) []
| O_rate : is_kiss_ntsn p = false -> is_kiss_rate p (s_last_poll s) = true ->
    outcome c s id p
      (set_remote_min (vstate s p) (Z.max (poll_inc c (s_remote_min s)) (s_last_poll s))) []
| O_deny_nts : is_kiss_ntsn p = false -> is_kiss_rstr p || is_kiss_deny p = true -> s_nts s = true ->
    outcome c s id p (vstate s p) [Demobilize]
| O_deny_plain : is_kiss_ntsn p = false -> is_kiss_rstr p || is_kiss_deny p = true -> s_nts s = false ->
    outcome c s id p (set_deny (vstate s p) true) []
| O_measure : is_kiss p = false -> p_stratum p <= MAX_STRATUM -> p_mode p = MODE_SERVER ->
    outcome c s id p (fst (process_message (vstate s p) id p)) [Measure id].

(* [dispatch] in terms of [vstate], which agrees with [s] on the fields the tests read *)
Lemma dispatch_vstate : forall c s id p,
  dispatch c s id p =
  if is_kiss_ntsn p then (vstate s p, [])
  else if is_kiss_rate p (s_last_poll s) then
    (set_remote_min (vstate s p) (Z.max (poll_inc c (s_remote_min s)) (s_last_poll s)), [])
  else if is_kiss_rstr p || is_kiss_deny p then
    if s_nts s then (vstate s p, [Demobilize]) else (set_deny (vstate s p) true, [])
  else if is_kiss p then (vstate s p, [])
  else if p_stratum p >? MAX_STRATUM then (vstate s p, [])
  else if negb (p_mode p =? MODE_SERVER) then (vstate s p, [])
  else process_message (vstate s p) id p.
Proof. reflexivity. Qed.

Lemma dispatch_outcome : forall c s id p s' acts,
  dispatch c s id p = (s', acts) -> outcome c s id p s' acts.
Proof.
  intros c s id p s' acts. rewrite dispatch_vstate.
  destruct (is_kiss_ntsn p) eqn:E1; [intros H; injection H as <- <-; constructor|].
  destruct (is_kiss_rate p (s_last_poll s)) eqn:E2; [intros H; injection H as <- <-; now constructor|].
  destruct (is_kiss_rstr p || is_kiss_deny p) eqn:E3.
  { destruct (s_nts s) eqn:E4; intros H; injection H as <- <-; now constructor. }
  destruct (is_kiss p) eqn:E5; [intros H; injection H as <- <-; constructor|].
  destruct (p_stratum p >? MAX_STRATUM) eqn:E6; [intros H; injection H as <- <-; constructor|].
  destruct (negb (p_mode p =? MODE_SERVER)) eqn:E7; [intros H; injection H as <- <-; constructor|].
  intros H. unfold process_message in *. injection H as <- <-.
  apply O_measure; auto; lia.
Qed.

(* every reaction of handle_incoming: ignored, or one of the dispatch outcomes
   for the request the packet is accepted for *)
Lemma step_incoming_cases : forall c s now op s' acts,
  step_incoming c s now op = (s', acts) ->
  (s' = s /\ acts = [] /\ (op = None \/ exists p, op = Some p /\ accepts s now p = None)) \/
  (exists p id, op = Some p /\ accepts s now p = Some id /\ outcome c s id p s' acts).
Proof.
  intros c s now [p|] s' acts H.
  - rewrite step_incoming_accepts in H. destruct (accepts s now p) as [id|] eqn:A.
    + right. exists p, id. repeat split; auto. now apply dispatch_outcome.
    + injection H as <- <-. left. repeat split; auto. right. eauto.
  - injection H as <- <-. left. auto.
Qed.

Lemma kiss_stratum : forall p, is_kiss p = false <-> p_stratum p <> 0.
Proof. intros p. unfold is_kiss. lia. Qed.

Lemma valid_response_origin : forall p id nts, valid_response p id nts = true -> p_origin p = id.
Proof. intros p id nts H. unfold valid_response in H. apply andb_prop in H. lia. Qed.

Lemma valid_response_uid : forall p id,
  valid_response p id true = true -> is_kiss_ntsn p = false -> uid_bound p id.
Proof.
  intros p id H N. unfold valid_response in H. apply andb_prop in H. destruct H as [H _].
  now apply uid_ok_bound.
Qed.

(* a measurement is taken only from an answer to the pending request (C08) *)
Theorem measure_only_if : forall c s now op s' acts id,
  step_incoming c s now op = (s', acts) -> In (Measure id) acts ->
  exists p dl, op = Some p /\ s_req s = Some (id, dl) /\ now <= dl
    /\ expected (s_ver s) (p_ver p) = true
    /\ p_origin p = id
    /\ (s_nts s = true -> uid_bound p id)
    /\ p_stratum p <> 0 /\ p_stratum p <= MAX_STRATUM /\ p_mode p = MODE_SERVER
    /\ acts = [Measure id] /\ s_req s' = None.
Proof.
  intros c s now op s' acts id H M. apply step_incoming_cases in H.
  destruct H as [(_ & -> & _)|(p & id' & -> & A & O)]; [contradiction|].
  apply accepts_spec in A. destruct A as (dl & R & D & E & V).
  inversion O; subst; simpl in M; try tauto; try (destruct M as [M|[]]; discriminate).
  destruct M as [M|[]]. injection M as <-.
  exists p, dl. splits; auto.
  - now apply valid_response_origin in V.
  - intros N. rewrite N in V. apply valid_response_uid; auto.
    destruct (is_kiss_ntsn p) eqn:K; [apply kiss_of_ntsn in K; congruence|reflexivity].
  - now apply kiss_stratum.
Qed.

(* the replay automaton over the actions of a run: a Measure is legal only if
   no Measure happened since the last Send *)
Fixpoint one_per_request (m : bool) (tr : list action) : bool :=
  match tr with
  | [] => true
  | Send _ :: r => one_per_request false r
  | Measure _ :: r => negb m && one_per_request true r
  | _ :: r => one_per_request m r
  end.

Lemma step_incoming_req : forall c s now op s' acts,
  step_incoming c s now op = (s', acts) ->
  (acts = [] \/ acts = [Demobilize]) /\ s_req s' = s_req s \/
  (exists id dl, acts = [Measure id] /\ s_req s = Some (id, dl) /\ s_req s' = None).
Proof.
  intros c s now op s' acts H. apply step_incoming_cases in H.
  destruct H as [(-> & -> & _)|(p & id & -> & A & O)]; [left; auto|].
  apply accepts_spec in A. destruct A as (dl & R & _).
  inversion O; subst; try (left; split; [auto|reflexivity]).
  right. exists id, dl. auto.
Qed.

(* what handle_incoming does to the polling state: nothing, a RATE step, or an answer
   that consumes the request and may raise the remote minimum (NTPv5) *)
Lemma incoming_poll : forall c s now op s' acts,
  step_incoming c s now op = (s', acts) ->
  s_last_poll s' = s_last_poll s /\
  ((s_remote_min s' = s_remote_min s /\ (s_req s' = s_req s \/ s_req s' = None)) \/
   (s_remote_min s' = Z.max (poll_inc c (s_remote_min s)) (s_last_poll s)
    /\ s_req s' = s_req s /\ s_req s <> None) \/
   (exists p id, op = Some p /\ acts = [Measure id] /\ s_req s' = None /\
      s_remote_min s' = if is_v5 p && (p_poll p >? s_remote_min s) then p_poll p else s_remote_min s)).
Proof.
  intros c s now op s' acts H. apply step_incoming_cases in H.
  destruct H as [(-> & _)|(p & id & -> & A & O)]; [auto|].
  apply accepts_spec in A. destruct A as (dl & R & _).
  inversion O; subst; (split; [reflexivity|]); try (left; split; [reflexivity|left; reflexivity]).
  - right. left. repeat split. congruence.
  - right. right. exists p, id. repeat split.
Qed.

(* what handle_timer does to the polling state *)
Lemma timer_poll : forall c s now d s' acts,
  step_timer c s now d = Ok (s', acts) ->
  s_remote_min s' = s_remote_min s /\
  ((s_last_poll s' = s_last_poll s /\ s_req s' = s_req s) \/ s_last_poll s' = Z.max d (s_remote_min s)).
Proof.
  intros c s now d s' acts H. apply step_timer_inv in H.
  destruct H as [(_ & -> & _)|[(_ & _ & _ & ->)|(_ & r & _ & -> & _)]]; auto.
Qed.

(* only a timer step builds a request *)
Lemma step_send : forall c s e s' acts r,
  step c s e = Ok (s', acts) -> In (Send r) acts ->
  exists now d, e = Timer now d /\ timer_polls s = true /\ timer_sends s now d s' acts r.
Proof.
  intros c s [now d|now op] s' acts r H I; simpl in H.
  - exists now, d. split; [reflexivity|]. eapply step_timer_send; eauto.
  - injection H as H. apply step_incoming_req in H.
    destruct H as [([->| ->] & _)|(id & dl & -> & _)]; simpl in I; intuition discriminate.
Qed.

(* along every run the actions are accepted by the automaton (C08) *)
Theorem at_most_one : forall c evs s s' tr m,
  run c s evs = Ok (s', tr) -> (m = true -> s_req s = None) ->
  one_per_request m (concat tr) = true.
Proof.
  intros c. induction evs as [|e evs IH]; intros s s' tr m H Hm.
  - injection H as <- <-. reflexivity.
  - apply run_cons in H. destruct H as (s1 & a & tr' & H1 & H2 & ->).
    simpl concat. destruct e as [now d|now op]; simpl in H1.
    + apply step_timer_inv in H1.
      destruct H1 as [(_ & -> & ->)|[(_ & _ & -> & ->)|(_ & r & -> & -> & _)]].
      * destruct (s_deny s); simpl; eapply IH; eauto.
      * simpl. eapply IH; eauto.
      * simpl. eapply IH; eauto. discriminate.
    + injection H1 as H1. apply step_incoming_req in H1.
      destruct H1 as [([->| ->] & R)|(id & dl & -> & R & R')]; simpl.
      1, 2: eapply IH; eauto; rewrite R; auto.
      destruct m; [specialize (Hm eq_refl); congruence|]. simpl. eapply IH; eauto.
Qed.

(* NTS sources are created with the version negotiated by key exchange *)
Definition nts_ver_ok (s : st) : Prop := s_nts s = true -> s_ver s = V4 \/ s_ver s = V5.

Lemma ver_after_valid_fixed : forall v p, v = V4 \/ v = V5 -> ver_after_valid v p = v.
Proof. intros v p [-> | ->]; reflexivity. Qed.

Lemma fold_ver_fixed : forall ps v, v = V4 \/ v = V5 -> fold_left ver_after_valid ps v = v.
Proof. induction ps as [|p ps IH]; intros v Hv; simpl; [|rewrite ver_after_valid_fixed]; auto. Qed.

Lemma vstate_nts : forall s p, s_nts s = true -> nts_ver_ok s -> vstate s p = s.
Proof.
  intros s p N W. unfold vstate. rewrite ver_after_valid_fixed; auto. apply set_ver_same.
Qed.

(* a datagram either does nothing to an NTS source, or it is authenticated and bound
   to the pending request: inside the window, origin and unique identifier of that
   request, and not an NTS NAK *)
Lemma nts_incoming : forall c s now op,
  s_nts s = true -> nts_ver_ok s ->
  step_incoming c s now op = (s, []) \/
  exists p id dl, op = Some p /\ authenticated p = true
    /\ s_req s = Some (id, dl) /\ now <= dl
    /\ expected (s_ver s) (p_ver p) = true
    /\ p_origin p = id /\ uid_bound p id /\ is_kiss_ntsn p = false.
Proof.
  intros c s now [p|] N W; [|left; reflexivity].
  rewrite step_incoming_accepts. destruct (accepts s now p) as [id|] eqn:A; [|left; reflexivity].
  apply accepts_spec in A. destruct A as (dl & R & D & E & V). rewrite N in V.
  destruct (is_kiss_ntsn p) eqn:K.
  - left. rewrite dispatch_vstate, K, vstate_nts by assumption. reflexivity.
  - right. pose proof (valid_response_uid _ _ V K) as U. exists p, id, dl. splits; auto.
    + eapply uid_bound_authenticated; eauto.
    + eapply valid_response_origin; eauto.
Qed.

Lemma stash_store_in : forall l k x, In x (stash_store l k) -> In x l \/ x = k.
Proof.
  intros l k x. unfold stash_store.
  destruct (Z.of_nat (length l) <? MAX_COOKIES); intros H; apply in_app_or in H.
  - destruct H as [H|[H|[]]]; auto.
  - destruct H as [H|[H|[]]]; auto. left. destruct l; simpl in *; auto.
Qed.

Lemma fold_store_in : forall ks l x,
  In x (fold_left stash_store ks l) -> In x l \/ In x ks.
Proof.
  induction ks as [|k ks IH]; simpl; intros l x H; auto.
  apply IH in H. destruct H as [H|H]; auto.
  apply stash_store_in in H. destruct H as [H| ->]; auto.
Qed.

(* the stash after handle_incoming: untouched, or the encrypted-position
   cookies of an accepted, authenticated, non-kiss answer were stored (NTS source) *)
Theorem incoming_stash : forall c s now op s' acts,
  step_incoming c s now op = (s', acts) ->
  s_stash s' = s_stash s \/
  exists p id, op = Some p /\ acts = [Measure id] /\ s_nts s = true /\
    s_stash s' = fold_left stash_store (cookies_encr p) (s_stash s).
Proof.
  intros c s now op s' acts H. apply step_incoming_cases in H.
  destruct H as [(-> & _)|(p & id & -> & A & O)]; auto.
  inversion O; subst; auto.
  unfold process_message. cbn [fst s_stash vstate set_ver s_nts].
  destruct (s_nts s) eqn:N; auto. right. exists p, id. auto.
Qed.

(* the cookies in encrypted position of the packets of a history *)
Definition offered (evs : list event) : list cookie :=
  flat_map (fun e => match e with Incoming _ (Some p) => cookies_encr p | _ => [] end) evs.

Lemma timer_stash : forall c s now d s' acts x,
  step_timer c s now d = Ok (s', acts) -> In x (s_stash s') -> In x (s_stash s).
Proof.
  intros c s now d s' acts x H. apply step_timer_inv in H.
  destruct H as [(_ & -> & _)|[(_ & _ & _ & ->)|(_ & r & _ & -> & _)]]; auto;
    unfold polled; cbn [s_stash]; destruct (s_nts s); auto;
    destruct (s_stash s); simpl; auto.
Qed.

(* RATE answering the pending request: the new remote minimum is at least the interval
   just used, and one step above the old remote minimum (up to the configured maximum) *)
Theorem rate_lengthens : forall c s now p id s' acts,
  accepts s now p = Some id -> is_kiss_ntsn p = false -> is_kiss_rate p (s_last_poll s) = true ->
  step_incoming c s now (Some p) = (s', acts) ->
  acts = [] /\ s_last_poll s <= s_remote_min s'
  /\ (in_i8 (s_remote_min s) -> s_remote_min s < 127 -> Z.min (s_remote_min s + 1) (c_max c) <= s_remote_min s')
  /\ s_last_poll s' = s_last_poll s /\ s_req s' = s_req s /\ s_deny s' = s_deny s
  /\ s_reach s' = s_reach s /\ s_stash s' = s_stash s.
Proof.
  intros c s now p id s' acts A N R H.
  rewrite step_incoming_accepts, A, dispatch_vstate, N, R in H. injection H as <- <-.
  unfold vstate; cbn [s_remote_min s_last_poll s_req s_deny s_reach s_stash set_remote_min set_ver].
  splits; auto; try lia.
  intros I L. destruct (proj2 (poll_inc_spec c (s_remote_min s)) I) as (_ & _ & ->); lia.
Qed.

(* where Demobilize can come from *)
Theorem demobilize_sources : forall c s e s' acts,
  step c s e = Ok (s', acts) -> In Demobilize acts ->
  (exists now d, e = Timer now d /\ s_reach s = 0 /\ STARTUP_TRIES_THRESHOLD <= s_tries s /\ s_deny s = true) \/
  (exists now p id, e = Incoming now (Some p) /\ s_nts s = true /\ accepts s now p = Some id
     /\ is_kiss_ntsn p = false /\ is_kiss_rstr p || is_kiss_deny p = true).
Proof.
  intros c s e s' acts H I. destruct e as [now d|now op]; simpl in H.
  - left. apply step_timer_inv in H.
    destruct H as [(P & _ & ->)|[(_ & _ & -> & _)|(_ & r & -> & _)]].
    + exists now, d. unfold timer_polls in P. destruct (s_deny s); simpl in I.
      * repeat split; auto; lia.
      * destruct I as [I|[]]; discriminate.
    + destruct I as [I|[]]; discriminate.
    + destruct I as [I|[I|[]]]; discriminate.
  - right. injection H as H. apply step_incoming_cases in H.
    destruct H as [(_ & -> & _)|(p & id & -> & A & O)]; [contradiction|].
    inversion O; subst; simpl in I; try tauto; try (destruct I as [I|[]]; discriminate).
    exists now, p, id. auto.
Qed.

Definition wf_event (e : event) : Prop :=
  match e with
  | Timer _ d => in_i8 d
  | Incoming _ (Some p) => in_i8 (p_poll p)
  | Incoming _ None => True
  end.

(* while a request is pending the remote minimum was already taken into account
   when its poll interval was chosen, or stems from RATE steps below the maximum *)
Definition rate_inv (c : cfg) (s : st) : Prop :=
  in_i8 (s_remote_min s) /\ in_i8 (s_last_poll s) /\
  (s_req s <> None -> s_remote_min s <= s_last_poll s \/ s_remote_min s <= c_max c).

(* in the proof below: the two ranges and the monotonicity go to [lia]; what is left is
   the clause of [rate_inv] about the pending request *)
Ltac rate_inv_ranges := split; [split; [lia|split; [lia|]]|lia].

Lemma rate_inv_step : forall c s e s' acts,
  cfg_ok c -> wf_event e -> rate_inv c s -> step c s e = Ok (s', acts) ->
  rate_inv c s' /\ s_remote_min s <= s_remote_min s'.
Proof.
  intros c s e s' acts C W (I1 & I2 & I3) H.
  unfold cfg_ok in C. unfold rate_inv, in_i8 in *.
  destruct e as [now d|now op]; simpl in H, W; unfold in_i8 in W.
  - apply timer_poll in H.
    destruct H as (-> & [(-> & ->)| ->]); rate_inv_ranges; [exact I3|intros _; lia].
  - injection H as H. apply incoming_poll in H.
    destruct H as (-> & [(-> & [-> | ->])|[(-> & -> & Q)|(p & id & -> & _ & -> & ->)]]).
    + (* nothing moves *) rate_inv_ranges. exact I3.
    + (* the request is consumed *) rate_inv_ranges. congruence.
    + (* RATE *) specialize (I3 Q).
      destruct (poll_inc_spec c (s_remote_min s)) as (P0 & P). destruct (P I1) as (P1 & P2 & _).
      specialize (P1 ltac:(lia)). clear P. revert P0 P1 P2. generalize (poll_inc c (s_remote_min s)).
      intros q P0 P1 P2.
      rate_inv_ranges. intros _. lia.
    + (* an answer is measured *)
      destruct (is_v5 p && (p_poll p >? s_remote_min s)) eqn:B; rate_inv_ranges; congruence.
Qed.

Theorem remote_min_monotone : forall c evs s s' tr,
  cfg_ok c -> Forall wf_event evs -> rate_inv c s -> run c s evs = Ok (s', tr) ->
  rate_inv c s' /\ s_remote_min s <= s_remote_min s'
  /\ Forall (fun a => match a with Send r => s_remote_min s <= r_poll r | _ => True end) (concat tr).
Proof.
  intros c evs s s' tr C W I H.
  destruct (run_forall wf_event (fun s1 => rate_inv c s1 /\ s_remote_min s <= s_remote_min s1)
              (on_send (fun r => s_remote_min s <= r_poll r)) c) with (4 := H)
    as ((I' & M) & F); auto using Z.le_refl.
  intros s1 e s2 a We (I1 & M1) H1.
  destruct (rate_inv_step _ _ _ _ _ C We I1 H1) as [I2 M2]. split; [split; [assumption|lia]|].
  (* a request is built by a timer, with an interval of at least the remote minimum *)
  apply Forall_on_send. intros r Hr.
  destruct (step_send _ _ _ _ _ _ H1 Hr) as (now & d & _ & _ & _ & _ & P & _). lia.
Qed.
