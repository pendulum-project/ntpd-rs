(* Model/Bloom.v (C34; C33 reuses the membership part).  Membership: filters as bit sets ([bit],
   [contains_id_spec], [add_id_spec], [contains_id_mono]).  Server: [to_response_spec].  Client:
   the invariant [rinv] and one step under it ([handle_response_rinv], [bstep_rinv]); with an
   honest network the copy grows chunk by chunk ([agree], [counted], [bstep_inv], [brun_inv]);
   the fresh-cookie discipline gives honesty ([disciplined_honest]; [disciplinedb] tests it). *)
From V Require Import Model.Bloom Proofs.Common.
From V Require Import Gen.ConstSource.
(* byte_of and mask_of divide by 8, offsets are taken mod 512: lia is given the equations of / and mod *)
Ltac Zify.zify_post_hook ::= Z.div_mod_to_equations.

(* [simpl] on the list lemmas below must not compute inside the bit operations *)
Local Arguments Z.pow : simpl never.
Local Arguments Z.lor : simpl never.
Local Arguments Z.land : simpl never.
Local Arguments Z.testbit : simpl never.

(* stated in Z: a goal that shows the unary numeral 512%nat makes every destruct and rewrite slow *)
Lemma NBYTES_512 : Z.of_nat NBYTES = 512.
Proof. reflexivity. Qed.

(* two indexing sites in the code (set_bit, is_set) *)
Lemma bloom_site_census : N_BLOOM_INDEXING = 2.
Proof. reflexivity. Qed.

Lemma bf_new_length : length bf_new = NBYTES.
Proof. apply repeat_length. Qed.

Lemma length_updz : forall l i x, length (updz i x l) = length l.
Proof. induction l; destruct i; simpl; auto. Qed.

Lemma nth_updz_eq : forall l i x d, (i < length l)%nat -> nth i (updz i x l) d = x.
Proof. induction l; destruct i; simpl; intros; try lia; auto. apply IHl. lia. Qed.

Lemma nth_updz_neq : forall l i j x d, i <> j -> nth j (updz i x l) d = nth j l d.
Proof. induction l; destruct i; destruct j; simpl; intros; try congruence; auto. Qed.

Definition bit (f : list Z) (idx : Z) : bool :=
  Z.testbit (nth (byte_of idx) f 0) (idx mod 8).

Lemma idx_byte : forall idx, 0 <= idx <= U12_MAX -> (byte_of idx < NBYTES)%nat.
Proof. intros idx H. unfold byte_of, U12_MAX in *. pose proof NBYTES_512. lia. Qed.

Lemma is_set_bit : forall f idx, length f = NBYTES -> 0 <= idx <= U12_MAX ->
  is_set f idx = Ok (bit f idx).
Proof.
  intros f idx Hl Hi. unfold is_set. pose proof (idx_byte idx Hi) as Hb. rewrite Hl.
  destruct (Nat.ltb_spec (byte_of idx) NBYTES); [|lia].
  unfold bit, mask_of. rewrite land_pow2 by lia. rewrite negb_involutive. reflexivity.
Qed.

Lemma same_index : forall i j, 0 <= i -> 0 <= j ->
  (i = j <-> byte_of i = byte_of j /\ i mod 8 = j mod 8).
Proof. intros. unfold byte_of. split; [intros ->; auto|]. intros [H1 H2]. lia. Qed.

Lemma set_bit_spec : forall f idx, length f = NBYTES -> 0 <= idx <= U12_MAX ->
  exists f', set_bit f idx = Ok f' /\ length f' = NBYTES /\
    forall j, 0 <= j -> bit f' j = (idx =? j) || bit f j.
Proof.
  intros f idx Hl Hi. unfold set_bit. pose proof (idx_byte idx Hi) as Hb. rewrite Hl.
  destruct (Nat.ltb_spec (byte_of idx) NBYTES); [|lia].
  eexists. split; [reflexivity|]. split; [rewrite length_updz; auto|].
  intros j Hj. unfold bit. destruct (Nat.eq_dec (byte_of idx) (byte_of j)) as [E|E].
  - rewrite <- E, nth_updz_eq by lia. unfold mask_of.
    rewrite Z.lor_spec, Z.pow2_bits_eqb by lia. rewrite orb_comm. f_equal.
    destruct (Z.eqb_spec idx j) as [->|N]; [apply Z.eqb_refl|].
    apply Z.eqb_neq. intro E2. apply N. apply same_index; try lia; auto.
  - rewrite nth_updz_neq by auto.
    destruct (Z.eqb_spec idx j) as [->|N]; [congruence|reflexivity].
Qed.

Lemma contains_id_spec : forall f id, length f = NBYTES -> id_ok id ->
  contains_id f id = Ok (forallb (bit f) id).
Proof.
  intros f id Hl Hid. induction Hid as [|i r Hi Hr IH]; [reflexivity|].
  cbn [contains_id forallb]. rewrite is_set_bit by auto. cbn [res_bind].
  destruct (bit f i); auto.
Qed.

Lemma add_id_spec : forall id f, length f = NBYTES -> id_ok id ->
  exists f', add_id f id = Ok f' /\ length f' = NBYTES /\
    forall j, 0 <= j -> bit f' j = existsb (fun i => i =? j) id || bit f j.
Proof.
  induction id as [|i r IH]; intros f Hl Hid.
  - exists f. repeat split; auto.
  - inversion Hid as [|? ? Hi Hr]; subst. destruct (set_bit_spec f i Hl Hi) as (f1 & E1 & L1 & B1).
    destruct (IH f1 L1 Hr) as (f2 & E2 & L2 & B2).
    exists f2. cbn [add_id]. rewrite E1. cbn [res_bind]. split; auto. split; auto.
    intros j Hj. rewrite B2, B1 by auto. cbn [existsb].
    destruct (i =? j), (existsb (fun i0 => i0 =? j) r), (bit f j); reflexivity.
Qed.

Lemma contains_id_mono : forall f g id, length f = NBYTES -> length g = NBYTES -> id_ok id ->
  (forall j, 0 <= j -> bit f j = true -> bit g j = true) ->
  contains_id f id = Ok true -> contains_id g id = Ok true.
Proof.
  intros f g id Hf Hg Hid Hsub. rewrite !contains_id_spec by assumption. intros [= H]. f_equal.
  rewrite forallb_forall in *. unfold id_ok in Hid. rewrite Forall_forall in Hid.
  intros j Hj. apply Hsub; [apply Hid; exact Hj|apply H; exact Hj].
Qed.

(* adding an id makes it a member and loses no member (C34_no_false_negative; C33_advertise rests on it) *)
Theorem add_id_contains : forall f id, length f = NBYTES -> id_ok id ->
  exists f', add_id f id = Ok f' /\ length f' = NBYTES /\
    contains_id f' id = Ok true /\
    (forall id', id_ok id' -> contains_id f id' = Ok true -> contains_id f' id' = Ok true).
Proof.
  intros f id Hl Hid. destruct (add_id_spec id f Hl Hid) as (f' & E & L & B).
  exists f'. split; auto. split; auto. split.
  - rewrite contains_id_spec by auto. f_equal. apply forallb_forall. intros j Hj.
    unfold id_ok in Hid. rewrite Forall_forall in Hid. specialize (Hid j Hj).
    rewrite B by lia. apply orb_true_iff. left. apply existsb_exists. exists j. split; auto. apply Z.eqb_refl.
  - intros id' Hid'. apply contains_id_mono; auto.
    intros j Hj Hb. rewrite B, Hb by assumption. apply orb_true_r.
Qed.

Lemma length_bf_add : forall f g, length (bf_add f g) = length f.
Proof. induction f; destruct g; simpl; auto. Qed.

Lemma nth_bf_add : forall f g n, length f = length g ->
  nth n (bf_add f g) 0 = Z.lor (nth n f 0) (nth n g 0).
Proof.
  induction f; destruct g; simpl; intros; try discriminate.
  - destruct n; reflexivity.
  - destruct n; auto.
Qed.

Lemma bit_bf_add : forall f g j, length f = length g -> bit (bf_add f g) j = bit f j || bit g j.
Proof. intros. unfold bit. rewrite nth_bf_add by auto. apply Z.lor_spec. Qed.

(* the union has the members of both filters (C34_union_keeps_members; C33_advertise rests on it) *)
Theorem bf_add_contains : forall f g id, length f = NBYTES -> length g = NBYTES -> id_ok id ->
  length (bf_add f g) = NBYTES /\
  (contains_id f id = Ok true -> contains_id (bf_add f g) id = Ok true) /\
  (contains_id g id = Ok true -> contains_id (bf_add f g) id = Ok true).
Proof.
  intros f g id Hf Hg Hid. assert (length (bf_add f g) = NBYTES) as Hl by (rewrite length_bf_add; auto).
  split; auto.
  split; apply contains_id_mono; auto; intros j _ Hb; rewrite bit_bf_add, Hb by congruence;
    [reflexivity|apply orb_true_r].
Qed.

Theorem to_response_spec : forall f plen off, length f = NBYTES -> 0 <= plen -> 0 <= off ->
  to_response (mkReq plen off) f =
    (if off + plen <=? BLOOM_BYTES then Some (slice f (Z.to_nat off) (Z.to_nat plen)) else None) /\
  (forall b, to_response (mkReq plen off) f = Some b -> Z.of_nat (length b) = plen).
Proof.
  intros f plen off Hl Hp Ho. unfold to_response. cbn [req_offset payload_len]. rewrite Hl.
  unfold BLOOM_BYTES. pose proof NBYTES_512 as N.
  destruct (Z.leb_spec (off + plen) 512) as [B|B].
  - destruct (Nat.leb_spec (Z.to_nat off) NBYTES); [|lia].
    destruct (Nat.leb_spec (Z.to_nat plen) (NBYTES - Z.to_nat off)); [|lia]. split; [reflexivity|].
    intros b [= <-]. unfold slice. rewrite firstn_length, skipn_length, Hl. lia.
  - destruct (Nat.leb_spec (Z.to_nat off) NBYTES);
      [destruct (Nat.leb_spec (Z.to_nat plen) (NBYTES - Z.to_nat off)); [lia|]|];
      (split; [reflexivity|discriminate]).
Qed.

Definition valid_chunk (cs : Z) : Prop := cs mod 4 = 0 /\ 0 < cs <= 512 /\ 512 mod cs = 0.

(* RemoteBloomFilter::new: each failing test of the code refutes a conjunct of [valid_chunk] *)
Lemma rbf_new_iff : forall cs r, 0 <= cs < 65536 ->
  (rbf_new cs = Some r <-> valid_chunk cs /\ r = mkRbf bf_new cs None 0 false).
Proof.
  intros cs r Hc. unfold rbf_new, valid_chunk.
  destruct (Z.eqb_spec (cs mod 4) 0); cbn [negb];
    [destruct (Z.eqb_spec cs 0); cbn [orb];
     [|destruct (Z.gtb_spec cs 512); [|destruct (Z.eqb_spec (512 mod cs) 0); cbn [negb]]]|];
    try (split; [discriminate|intros [(? & ? & ?) _]; lia]).
  split; [intros [= <-]; split; [lia|reflexivity]|intros [_ ->]; reflexivity].
Qed.

(* what every reachable client state satisfies: the chunk size is cs, the filter has its 512
   bytes, the next offset is a multiple of cs below 512, and an outstanding request is for it *)
Definition rinv (cs : Z) (r : rbf) : Prop :=
  chunk r = cs /\ length (filter r) = NBYTES /\ 0 <= next r < 512 /\ next r mod cs = 0 /\
  (forall off c, last_req r = Some (off, c) -> off = next r).

(* offsets are multiples of the chunk size; the one after the last chunk wraps to 0 *)
Lemma chunk_arith : forall cs x, valid_chunk cs -> 0 <= x < 512 -> x mod cs = 0 ->
  x + cs <= 512 /\ ((x + cs) mod 512) mod cs = 0 /\ 0 <= (x + cs) mod 512 < 512.
Proof.
  intros cs x (_ & Hr & Hd) Hx Hm.
  apply Z.mod_divide in Hm, Hd; try lia. destruct Hm as [a ->]. destruct Hd as [n E].
  assert (a < n) by nia. assert (Hle : a * cs + cs <= 512) by nia.
  split; [exact Hle|]. split; [|apply Z.mod_pos_bound; lia].
  destruct (Z.eq_dec (a * cs + cs) 512) as [->|N].
  - rewrite Z.mod_same by lia. apply Z.mod_0_l. lia.
  - rewrite (Z.mod_small (a * cs + cs) 512) by (clear E; lia). replace (a * cs + cs) with ((a + 1) * cs) by ring.
    apply Z.mod_mul. lia.
Qed.

Lemma rinv_new : forall cs, valid_chunk cs -> rinv cs (mkRbf bf_new cs None 0 false).
Proof.
  intros cs (H4 & Hr & Hd). unfold rinv; cbn [chunk filter next last_req].
  split; [reflexivity|]. split; [exact bf_new_length|]. split; [lia|].
  split; [apply Z.mod_0_l; lia|discriminate].
Qed.

Lemma next_request_ok : forall cs r c, valid_chunk cs -> rinv cs r ->
  next_request r c = Ok (mkRbf (filter r) (chunk r) (Some (next r, c)) (next r) (filled r),
                         mkReq cs (next r)).
Proof.
  intros cs r c Hv (Hc & Hl & Hn & Hm & Hq). pose proof Hv as (H4 & Hr & Hd).
  destruct (chunk_arith cs (next r) Hv Hn Hm) as (Hle & _).
  unfold next_request, request_new. rewrite Hc.
  destruct (Z.eqb_spec (cs mod 4) 0); [|lia]. cbn [negb].
  unfold REQUEST_MAX_END. rewrite Z.mod_small by lia.
  destruct (Z.gtb_spec (cs + next r) 512); [lia|]. reflexivity.
Qed.

(* under the invariant handle_response has no panic branch left, and the outstanding offset is
   [next r] *)
Lemma handle_response_rinv : forall cs r c b, valid_chunk cs -> rinv cs r ->
  handle_response r c b =
    match last_req r with
    | None => Err E_not_awaiting
    | Some (_, ec) =>
        if negb (c =? ec) then Err E_mismatched_cookie
        else if negb (Z.of_nat (length b) =? cs) then Err E_mismatched_length
        else Ok (mkRbf (splice (filter r) (Z.to_nat (next r)) b) cs None ((next r + cs) mod 512)
                       (filled r || ((next r + cs) mod 512 =? 0)))
    end.
Proof.
  intros cs r c b Hv (Hc & Hl & Hn & Hm & Hq). unfold handle_response.
  destruct (last_req r) as [[off ec]|]; [|reflexivity]. rewrite (Hq off ec eq_refl), Hc.
  destruct (negb (c =? ec)); [reflexivity|]. destruct (negb (_ =? cs)); [reflexivity|].
  destruct (chunk_arith cs (next r) Hv Hn Hm) as (Hle & _). destruct Hv as (_ & Hr & _).
  rewrite Hl. destruct (Nat.leb_spec (Z.to_nat (next r) + Z.to_nat cs) NBYTES); [|pose proof NBYTES_512; lia].
  unfold BLOOM_BYTES. rewrite (Z.mod_small (next r + cs) 65536) by lia. reflexivity.
Qed.

Lemma length_splice : forall l off b, (off + length b <= length l)%nat ->
  length (splice l off b) = length l.
Proof.
  intros. unfold splice. rewrite !app_length, firstn_length, skipn_length. lia.
Qed.

(* one step from a state that satisfies [rinv] cannot panic and keeps [rinv]; what it does *)
Lemma bstep_rinv : forall cs r e, valid_chunk cs -> rinv cs r ->
  exists r', bstep r e = Ok r' /\ rinv cs r' /\
    match e with
    | Req c => r' = mkRbf (filter r) cs (Some (next r, c)) (next r) (filled r)
    | Resp c b =>
        if accepted r e
        then last_req r = Some (next r, c) /\ Z.of_nat (length b) = cs /\
             r' = mkRbf (splice (filter r) (Z.to_nat (next r)) b) cs None ((next r + cs) mod 512)
                        (filled r || ((next r + cs) mod 512 =? 0))
        else r' = r
    end.
Proof.
  intros cs r e Hv Hi. pose proof Hi as (Hc & Hl & Hn & Hm & Hq). destruct e as [c|c b].
  - cbn [bstep]. rewrite (next_request_ok cs r c Hv Hi), Hc. eexists. split; [reflexivity|].
    split; [|reflexivity]. unfold rinv; cbn [chunk filter next last_req fst].
    split; [reflexivity|]. split; [exact Hl|]. split; [exact Hn|]. split; [exact Hm|].
    intros off c0 [= <- _]. reflexivity.
  - cbn [bstep accepted]. rewrite (handle_response_rinv cs r c b Hv Hi).
    destruct (last_req r) as [[off ec]|] eqn:El; [|exists r; auto].
    destruct (Z.eqb_spec c ec) as [<-|]; cbn [negb]; [|exists r; auto].
    destruct (Z.eqb_spec (Z.of_nat (length b)) cs) as [Eb|]; cbn [negb]; [|exists r; auto].
    eexists. split; [reflexivity|]. rewrite (Hq off c eq_refl). split; [|auto].
    destruct (chunk_arith cs (next r) Hv Hn Hm) as (Hle & Hm' & Hn').
    unfold rinv; cbn [chunk filter next last_req].
    split; [reflexivity|]. split; [|split; [exact Hn'|split; [exact Hm'|discriminate]]].
    rewrite length_splice; [exact Hl|]. rewrite Hl. pose proof NBYTES_512 as N. clear - Eb Hle Hn N. lia.
Qed.

Lemma splice_same : forall l off len, (off + len <= length l)%nat ->
  splice l off (slice l off len) = l.
Proof.
  intros l off len H. unfold splice, slice.
  rewrite firstn_length, skipn_length. replace (Nat.min len (length l - off)) with len by lia.
  rewrite <- (firstn_skipn off l) at 4. f_equal.
  rewrite <- (firstn_skipn len (skipn off l)) at 2. f_equal.
  apply skipn_add.
Qed.

Lemma firstn_splice : forall l off b, (off + length b <= length l)%nat ->
  firstn (off + length b) (splice l off b) = firstn off l ++ b.
Proof.
  intros l off b H. unfold splice. rewrite app_assoc. apply firstn_app_len.
  rewrite app_length, firstn_length. lia.
Qed.

Lemma length_slice : forall (l : list Z) off len, (off + len <= length l)%nat ->
  length (slice l off len) = len.
Proof. intros. unfold slice. rewrite firstn_length, skipn_length. lia. Qed.

(* copying the server's chunk at [off] extends the prefix on which client and server agree *)
Lemma splice_agree : forall g f off len, (off + len <= length g)%nat -> length f = length g ->
  firstn off g = firstn off f ->
  firstn (off + len) (splice g off (slice f off len)) = firstn (off + len) f.
Proof.
  intros g f off len Hg Hf Hpre.
  pose proof (length_slice f off len ltac:(lia)) as Lb.
  rewrite <- Lb at 1. rewrite firstn_splice by lia. rewrite Hpre. symmetry. apply firstn_add.
Qed.

(* the client's copy equals the server's filter f: all of it once filled, the bytes below the
   next offset before *)
Definition agree (f : list Z) (r : rbf) : Prop :=
  if filled r then filter r = f
  else firstn (Z.to_nat (next r)) (filter r) = firstn (Z.to_nat (next r)) f.

(* k chunks have been accepted so far: the next offset is k * cs, or, once filled, k is at
   least the 512 / cs chunks of a round *)
Definition counted (cs : Z) (k : Z) (r : rbf) : Prop :=
  if filled r then 512 / cs <= k else next r = k * cs.

Lemma bstep_inv : forall cs f r e k, valid_chunk cs -> length f = NBYTES ->
  rinv cs r -> agree f r -> counted cs k r -> honest_step f r e ->
  exists r', bstep r e = Ok r' /\ rinv cs r' /\ agree f r' /\
    counted cs (k + (if accepted r e then 1 else 0)) r'.
Proof.
  intros cs f r e k Hv Hf Hi Ha Hk Hh.
  destruct (bstep_rinv cs r e Hv Hi) as (r' & E & Hi' & Hr'). exists r'.
  split; [exact E|]. split; [exact Hi'|]. clear E Hi'.
  destruct e as [c|c b]; [subst r'; rewrite Z.add_0_r; auto|].
  destruct (accepted r (Resp c b)); [|subst r'; rewrite Z.add_0_r; auto].
  destruct Hr' as (El & Eb & ->). destruct Hi as (Hc & Hl & Hn & Hm & _).
  destruct (chunk_arith cs (next r) Hv Hn Hm) as (Hle & _). destruct Hv as (_ & Hr & _).
  (* honesty: b is the server's chunk *)
  assert (b = slice f (Z.to_nat (next r)) (Z.to_nat cs)) as ->.
  { unfold honest_step in Hh. rewrite El, Hc in Hh. specialize (Hh eq_refl Eb).
    destruct (to_response_spec f cs (next r) Hf ltac:(lia) ltac:(lia)) as [E _].
    rewrite E in Hh. unfold BLOOM_BYTES in Hh. destruct (Z.leb_spec (next r + cs) 512); [|lia].
    injection Hh as ->. reflexivity. }
  clear Hh El Eb Hc Hm. pose proof NBYTES_512 as N.
  set (n := Z.to_nat (next r)) in *. set (len := Z.to_nat cs).
  assert (Hfit : (n + len <= NBYTES)%nat) by lia.
  unfold agree, counted in *; cbn [filled filter next]. destruct (filled r); cbn [orb].
  - split; [|lia]. rewrite Ha. apply splice_same. lia.
  - pose proof (splice_agree (filter r) f n len ltac:(lia) ltac:(lia) Ha) as Hs.
    destruct (Z.eqb_spec ((next r + cs) mod 512) 0) as [E0|E0].
    + (* the round is complete *)
      assert (E512 : next r + cs = 512) by lia. split.
      * transitivity (firstn (n + len) f); [rewrite <- Hs; symmetry|]; apply firstn_all2; [|lia].
        rewrite length_splice; rewrite ?length_slice; lia.
      * clear Hs. subst len n. rewrite Hk in E512. replace 512 with ((k + 1) * cs) by lia.
        rewrite Z.div_mul; lia.
    + rewrite Z.mod_small by lia. split; [|lia].
      replace (Z.to_nat (next r + cs)) with (n + len)%nat by lia. exact Hs.
Qed.

(* behind C34_complete: every interleaving of requests, genuine, stale, wrong-cookie and
   wrong-size responses *)
Theorem brun_inv : forall cs f evs r k, valid_chunk cs -> length f = NBYTES ->
  rinv cs r -> agree f r -> counted cs k r -> honest f r evs ->
  exists r', brun r evs = Ok r' /\ rinv cs r' /\ agree f r' /\
    counted cs (k + Z.of_nat (n_accepted r evs)) r'.
Proof.
  intros cs f evs. induction evs as [|e t IH]; intros r k Hv Hf Hi Ha Hk Hh.
  - exists r. cbn. rewrite Z.add_0_r. auto.
  - cbn [honest] in Hh. destruct Hh as [Hh1 Hh2].
    destruct (bstep_inv cs f r e k Hv Hf Hi Ha Hk Hh1) as (r1 & E1 & Hi1 & Ha1 & Hk1).
    rewrite E1 in Hh2. destruct (IH r1 _ Hv Hf Hi1 Ha1 Hk1 Hh2) as (r' & E' & Hi' & Ha' & Hk').
    exists r'. cbn [brun n_accepted]. rewrite E1. cbn [res_bind]. split; auto. split; auto. split; auto.
    replace (k + Z.of_nat ((if accepted r e then 1 else 0) + n_accepted r1 t))
      with (k + (if accepted r e then 1 else 0) + Z.of_nat (n_accepted r1 t)); auto.
    destruct (accepted r e); lia.
Qed.

(* the fresh-cookie discipline implies honesty *)
Lemma disciplined_honest : forall cs f evs r seen, valid_chunk cs -> length f = NBYTES ->
  rinv cs r ->
  (forall off c, last_req r = Some (off, c) -> In (off, c) seen) ->
  disciplined f cs r seen evs -> honest f r evs.
Proof.
  intros cs f evs. induction evs as [|e t IH]; intros r seen Hv Hf Hi Hs Hd; [exact I|].
  destruct (bstep_rinv cs r e Hv Hi) as (r' & E & Hi' & Hr').
  cbn [honest]. rewrite E. destruct e as [c|c b]; cbn [disciplined] in Hd; rewrite E in Hd;
    destruct Hd as [H0 Hd].
  - split; [exact I|]. apply (IH r' _ Hv Hf Hi') in Hd; [exact Hd|].
    subst r'. cbn [last_req]. intros off c0 [= <- <-]. left. reflexivity.
  - split.
    + unfold honest_step. destruct (last_req r) as [[off ec]|]; [|exact I].
      intros -> Eb. destruct Hi as (Hc & _). rewrite Hc in *. apply H0; [apply Hs; reflexivity|exact Eb].
    + apply (IH r' _ Hv Hf Hi') in Hd; [exact Hd|].
      destruct (accepted r (Resp c b)); [|subst r'; exact Hs].
      destruct Hr' as (_ & _ & ->). cbn [last_req]. discriminate.
Qed.

(* [disciplined] as a test, for concrete histories *)
Fixpoint disciplinedb (f : list Z) (cs : Z) (r : rbf) (seen : list (Z * Z)) (evs : list bevent) : bool :=
  match evs with
  | [] => true
  | Req c :: t =>
      negb (existsb (Z.eqb c) (map snd seen)) &&
      match bstep r (Req c) with Ok r' => disciplinedb f cs r' ((next r, c) :: seen) t | _ => true end
  | Resp c b :: t =>
      forallb (fun p => negb (snd p =? c) || negb (Z.of_nat (length b) =? cs) ||
                        match to_response (mkReq cs (fst p)) f with
                        | Some b' => zl_eqb b b'
                        | None => false
                        end) seen &&
      match bstep r (Resp c b) with Ok r' => disciplinedb f cs r' seen t | _ => true end
  end.

Lemma zl_eqb_eq : forall a b, zl_eqb a b = true -> a = b.
Proof.
  induction a as [|x a IH]; intros [|y b] H; try discriminate; [reflexivity|].
  cbn [zl_eqb] in H. apply andb_true_iff in H as [H1 H2]. apply Z.eqb_eq in H1. f_equal; auto.
Qed.

Lemma disciplinedb_sound : forall f cs evs r seen,
  disciplinedb f cs r seen evs = true -> disciplined f cs r seen evs.
Proof.
  intros f cs evs. induction evs as [|[c|c b] t IH]; intros r seen H;
    cbn [disciplinedb disciplined] in *; [exact I| |]; apply andb_true_iff in H as [H1 H2].
  - split; [|destruct (bstep r (Req c)); auto].
    intros Hin. apply negb_true_iff, not_true_iff_false in H1.
    apply H1, (existsb_eqb_In Z.eqb Z.eqb_eq). exact Hin.
  - split; [|destruct (bstep r (Resp c b)); auto].
    intros off Hin Hlen. rewrite forallb_forall in H1. specialize (H1 _ Hin). cbn [fst snd] in H1.
    apply Z.eqb_eq in Hlen. rewrite Z.eqb_refl, Hlen in H1. cbn [negb orb] in H1.
    destruct (to_response (mkReq cs off) f); [|discriminate]. f_equal. apply zl_eqb_eq. exact H1.
Qed.
