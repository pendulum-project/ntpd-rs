(* Poll interval bounds (C10) and the size of poll requests (C14). *)
From V Require Import Model.Source Gen.ConstSource Gen.ConstSourceS2 Proofs.SourceBase Proofs.SourceIncoming.
Open Scope Z_scope.


Definition within (c : cfg) (p : Z) : Prop := c_min c <= p <= c_max c.

Lemma poll_inc_within : forall c p, cfg_ok c -> within c p -> within c (poll_inc c p).
Proof.
  intros c p C W. unfold cfg_ok, within in *.
  destruct (poll_inc_spec c p) as (M & P). destruct P as (_ & P & _); [unfold in_i8|]; lia.
Qed.

Lemma poll_dec_within : forall c p, cfg_ok c -> within c p -> within c (poll_dec c p).
Proof.
  intros c p C W. unfold cfg_ok, within in *. unfold poll_dec, sat_i8. lia.
Qed.

Definition desire_ok (c : cfg) (ph : dphase) : Prop := within c (get_desired_poll c ph).

Lemma dstep_ok : forall c initial hyst ph e,
  cfg_ok c -> within c initial -> desire_ok c ph -> desire_ok c (dstep c initial hyst ph e).
Proof.
  intros c initial hyst ph e C I D. unfold desire_ok in *.
  destruct ph as [|d]; destruct e as [|l h s]; simpl in *; auto.
  unfold update_desired_poll.
  destruct s; [simpl; unfold cfg_ok, within in *; lia|].
  destruct (_ <=? _); [simpl; now apply poll_inc_within|].
  destruct (_ >=? _); [simpl; now apply poll_dec_within|].
  simpl. auto.
Qed.

Theorem filter_desire : forall c initial hyst evs ph,
  cfg_ok c -> within c initial -> desire_ok c ph ->
  desire_ok c (fold_left (dstep c initial hyst) evs ph).
Proof.
  intros c initial hyst. induction evs as [|e evs IH]; intros ph C I D; simpl; auto.
  apply IH; auto. now apply dstep_ok.
Qed.

(* the controller's desire handed to handle_timer lies within the limits (filter_desire) *)
Definition desire_in (c : cfg) (e : event) : Prop :=
  match e with Timer _ d => within c d | _ => True end.

(* the poll intervals an accepted NTPv5 answer asked for, along a run *)
Fixpoint accepted_polls (c : cfg) (s : st) (evs : list event) : list Z :=
  match evs with
  | [] => []
  | e :: rest =>
    match step c s e with
    | Ok (s1, a) =>
      (match e, a with
       | Incoming _ (Some p), [Measure _] => if is_v5 p then [p_poll p] else []
       | _, _ => []
       end) ++ accepted_polls c s1 rest
    | _ => []
    end
  end.

Definition send_within (lo hi : Z) (a : action) : Prop :=
  match a with Send r => lo <= r_poll r <= hi | _ => True end.

Lemma bounds_step : forall c s e s' acts B,
  desire_in c e -> c_max c <= B -> s_remote_min s <= B -> s_last_poll s <= B ->
  step c s e = Ok (s', acts) ->
  Forall (fun q => q <= B) (accepted_polls c s [e]) ->
  s_remote_min s' <= B /\ s_last_poll s' <= B /\ Forall (send_within (c_min c) B) acts.
Proof.
  intros c s e s' acts B D CB R L H A. rewrite <- and_assoc. split.
  - simpl in A. rewrite H, app_nil_r in A. destruct e as [now d|now op]; simpl in H.
    + simpl in D. unfold within in D. apply timer_poll in H.
      destruct H as (-> & [(-> & _)| ->]); lia.
    + injection H as H. apply incoming_poll in H.
      destruct H as (-> & [(-> & _)|[(-> & _)|(p & id & -> & -> & _ & ->)]]).
      * auto.
      * pose proof (proj1 (poll_inc_spec c (s_remote_min s))). lia.
      * destruct (is_v5 p); [|auto]. inversion A; subst.
        destruct (true && (p_poll p >? s_remote_min s)); auto.
  - (* a request is built by a timer, from a desire within the limits *)
    apply (Forall_on_send (fun r => c_min c <= r_poll r <= B)). intros r Hr.
    destruct (step_send _ _ _ _ _ _ H Hr) as (now & d & -> & _ & _ & _ & P & _).
    simpl in D. unfold within in D. lia.
Qed.

Lemma accepted_polls_cons : forall c s e evs s1 a,
  step c s e = Ok (s1, a) ->
  accepted_polls c s (e :: evs) = accepted_polls c s [e] ++ accepted_polls c s1 evs.
Proof. intros c s e evs s1 a H. simpl. rewrite H. now rewrite app_nil_r. Qed.

(* requests poll within [c_min, B] for every bound B above the maximum, the state's
   intervals and what accepted NTPv5 answers asked for (C10) *)
Theorem poll_bounds_gen : forall c evs s s' tr B,
  Forall (desire_in c) evs -> c_max c <= B -> s_remote_min s <= B -> s_last_poll s <= B ->
  run c s evs = Ok (s', tr) ->
  Forall (fun q => q <= B) (accepted_polls c s evs) ->
  Forall (send_within (c_min c) B) (concat tr).
Proof.
  intros c. induction evs as [|e evs IH]; intros s s' tr B D CB R L H A.
  - injection H as <- <-. constructor.
  - apply run_cons in H. destruct H as (s1 & a & tr' & H1 & H2 & ->).
    inversion D as [|? ? De Dr]; subst.
    rewrite (accepted_polls_cons _ _ _ _ _ _ H1) in A. apply Forall_app in A. destruct A as [A1 A2].
    destruct (bounds_step _ _ _ _ _ _ De CB R L H1 A1) as (R1 & L1 & F1).
    simpl. apply Forall_app. split; auto. eapply IH; eauto.
Qed.

Lemma fold_max_ge : forall l b, b <= fold_right Z.max b l /\ Forall (fun q => q <= fold_right Z.max b l) l.
Proof.
  induction l as [|x l IH]; intros b; simpl.
  - split; [lia|constructor].
  - destruct (IH b) as [I1 I2]. split; [lia|]. constructor; [lia|].
    eapply Forall_impl; [|exact I2]. intros; simpl in *; lia.
Qed.

(* as_system_duration: the exponent is clamped to 0..31 *)
Lemma system_duration_clamp : forall p,
  system_duration_secs p = 2 ^ Z.max 0 (Z.min SYSTEM_DURATION_MAX_SHIFT p).
Proof.
  intros p. unfold system_duration_secs, SYSTEM_DURATION_MAX_SHIFT.
  destruct (p <? 0) eqn:A; [f_equal; lia|].
  destruct (p >? 31) eqn:B; f_equal; lia.
Qed.

Lemma ef_uid : ef_size AUTH_MIN_FIELD_SIZE UID_LENGTH = 36.
Proof. reflexivity. Qed.
Lemma ef_draft_auth : ef_size AUTH_MIN_FIELD_SIZE draft_len = 28.
Proof. reflexivity. Qed.
Lemma ef_draft_plain : ef_size V5_UNTRUSTED_MIN_FIELD_SIZE draft_len = 28.
Proof. reflexivity. Qed.
Lemma refid_size : refid_request_size = 20.
Proof. reflexivity. Qed.
Lemma nts_size : nts_field_size = 40.
Proof. reflexivity. Qed.

Lemma request_size_formula : forall nts v5 clen n,
  request_size nts v5 clen n =
  48 + (if nts then 36 + n * (((Z.max 16 (clen + 4) + 3) / 4) * 4) + (if v5 then 48 else 0) + 40
        else if v5 then 48 else 0).
Proof.
  intros nts v5 clen n. unfold request_size.
  rewrite ef_uid, ef_draft_auth, ef_draft_plain, refid_size, nts_size.
  unfold ef_size, pad4, HEADER_V4_LENGTH, AUTH_MIN_FIELD_SIZE, EF_HEADER_LENGTH.
  destruct nts, v5; lia.
Qed.

Definition MAX_REQUEST : Z := 952.

Lemma request_fits : forall v5 clen n,
  0 <= clen -> 1 <= n <= 8 -> n <= (SEND_BUFFER_SIZE - COOKIE_MARGIN) / Z.max clen 1 ->
  request_size true v5 clen n <= MAX_REQUEST /\ clen <= SEND_BUFFER_SIZE - COOKIE_MARGIN.
Proof.
  intros v5 clen n C N Q. rewrite request_size_formula.
  (* all the quotient gives; [lia] is kept away from the division after this *)
  assert (Q2 : n * Z.max clen 1 <= SEND_BUFFER_SIZE - COOKIE_MARGIN).
  { etransitivity; [apply Z.mul_le_mono_nonneg_r; [lia|exact Q]|].
    rewrite Z.mul_comm. apply Z.mul_div_le. lia. }
  clear Q. change (SEND_BUFFER_SIZE - COOKIE_MARGIN) with 724 in *. unfold MAX_REQUEST.
  assert (NC : n * clen <= n * Z.max clen 1) by (apply Z.mul_le_mono_nonneg_l; lia).
  assert (CL : clen <= n * clen)
    by (rewrite <- (Z.mul_1_l clen) at 1; apply Z.mul_le_mono_nonneg_r; lia).
  split; [|lia].
  (* padding to a multiple of four adds at most three bytes to each cookie field *)
  set (f := Z.max 16 (clen + 4)).
  assert (P : (f + 3) / 4 * 4 <= f + 3) by (rewrite Z.mul_comm; apply Z.mul_div_le; reflexivity).
  revert P. generalize ((f + 3) / 4 * 4). intros p P.
  assert (NP : n * p <= n * (f + 3)) by (apply Z.mul_le_mono_nonneg_l; lia).
  destruct (Z_le_gt_dec clen 12).
  - replace f with 16 in NP by (unfold f; lia). destruct v5; lia.
  - replace f with (clen + 4) in NP by (unfold f; lia). destruct v5; lia.
Qed.

Lemma plain_request_ok : forall v5, (request_size false v5 0 0 <=? SEND_BUFFER_SIZE) = true.
Proof. intros []; reflexivity. Qed.

(* the test handle_timer makes before sending an NTS request succeeds for every
   cookie length and every count [n] of cookie fields its margin computation yields *)
Lemma nts_request_ok : forall v5 clen gap q n,
  0 <= clen -> 1 <= gap <= MAX_COOKIES ->
  q = (SEND_BUFFER_SIZE - COOKIE_MARGIN) / Z.max clen 1 -> n = Z.min gap (Z.min q 255) ->
  (n =? 0) = false ->
  (request_size true v5 clen n <=? SEND_BUFFER_SIZE) && ef_encodable clen = true.
Proof.
  intros v5 clen gap q n K G Eq En N0.
  assert (Q : 0 <= q).
  { rewrite Eq. apply Z.div_pos; [discriminate|].
    apply Z.lt_le_trans with 1; [reflexivity|apply Z.le_max_r]. }
  unfold MAX_COOKIES in G.
  (* [Eq] cleared: [lia] need not know that [q] is a quotient *)
  assert (N : 1 <= n <= 8 /\ n <= q) by (clear Eq; lia).
  rewrite Eq in N. destruct (request_fits v5 clen n K (proj1 N) (proj2 N)) as [S1 S2].
  apply andb_true_intro. split; apply Z.leb_le.
  - apply (Z.le_trans _ _ _ S1). discriminate.
  - apply (Z.le_trans _ _ _ S2). discriminate.
Qed.

Definition stash_ok (l : list cookie) : Prop :=
  Z.of_nat (length l) <= MAX_COOKIES /\ Forall (fun k => 0 <= cookie_len k) l.

(* handle_timer cannot hit the expect on serialize, whatever cookies are in the stash *)
Theorem timer_total : forall c s now d x,
  stash_ok (s_stash s) -> step_timer c s now d <> Panic x.
Proof.
  intros c s now d x [L F]. unfold step_timer.
  destruct ((s_reach s =? 0) && (STARTUP_TRIES_THRESHOLD <=? s_tries s)); [discriminate|].
  cbv zeta. destruct (s_nts s).
  - destruct (s_stash s) as [|k rest]; [discriminate|].
    inversion F as [|? ? K _]; subst.
    assert (G : 1 <= stash_gap rest <= MAX_COOKIES)
      by (unfold stash_gap; simpl length in L; lia).
    set (n := Z.min (stash_gap rest) _).
    destruct (n =? 0) eqn:N0; [discriminate|].
    rewrite (nts_request_ok _ (cookie_len k) (stash_gap rest) _ n K G eq_refl eq_refl N0). discriminate.
  - rewrite plain_request_ok. discriminate.
Qed.

(* packets whose cookies have a non-negative length; they keep the stash well formed *)
Definition cookies_ok (e : event) : Prop :=
  match e with Incoming _ (Some p) => Forall (fun k => 0 <= cookie_len k) (cookies_encr p) | _ => True end.

Lemma stash_store_ok : forall l k, stash_ok l -> 0 <= cookie_len k -> stash_ok (stash_store l k).
Proof.
  intros l k [L F] K. unfold stash_ok, stash_store, MAX_COOKIES in *.
  destruct (Z.of_nat (length l) <? 8) eqn:E.
  - rewrite app_length. simpl length. split; [lia|]. apply Forall_app. split; auto.
  - rewrite app_length. simpl length. destruct l as [|x l]; simpl in *.
    + split; [lia|]. auto.
    + inversion F; subst. split; [lia|]. apply Forall_app. split; auto.
Qed.

Lemma fold_store_ok : forall ks l, stash_ok l -> Forall (fun k => 0 <= cookie_len k) ks ->
  stash_ok (fold_left stash_store ks l).
Proof.
  induction ks as [|k ks IH]; intros l L F; simpl; auto.
  inversion F; subst. apply IH; auto. now apply stash_store_ok.
Qed.

Lemma stash_ok_tl : forall l, stash_ok l -> stash_ok (tl l).
Proof.
  intros [|x l] [L F]; simpl; [split; auto|]. inversion F; subst. split; auto. simpl length in L. lia.
Qed.

Lemma step_stash_ok : forall c s e s' acts,
  cookies_ok e -> stash_ok (s_stash s) -> step c s e = Ok (s', acts) -> stash_ok (s_stash s').
Proof.
  intros c s e s' acts K S H. destruct e as [now d|now op]; simpl in H.
  - apply step_timer_inv in H.
    destruct H as [(_ & -> & _)|[(_ & _ & _ & ->)|(_ & r & _ & -> & _)]]; auto;
      unfold polled; cbn [s_stash]; destruct (s_nts s); auto; now apply stash_ok_tl.
  - injection H as H. apply incoming_stash in H.
    destruct H as [-> |(p & id & -> & _ & _ & ->)]; auto.
    apply fold_store_ok; auto.
Qed.
