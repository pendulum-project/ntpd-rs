(* Facts about Model/SrcCore.v: the state invariant, what one step does to each field
   of the state, and the cookie handling (C13). *)
From V Require Import Model.SrcSpec Proofs.CookieStash.
From V Require Import Gen.ConstSource.
(* [lia] on the boolean tests of the model, and on the [mod 256] and [/ 2] of the reach register *)
From Coq Require Import ZifyBool.
Ltac Zify.zify_post_hook ::= Z.div_mod_to_equations.

(* received_packet(): setting the lowest bit *)
Lemma lor1_val : forall r, Z.lor r 1 = 2 * (r / 2) + 1.
Proof.
  intros r. apply Z.bits_inj'. intros n Hn.
  rewrite Z.lor_spec. destruct (Z.eq_dec n 0) as [-> | N].
  - rewrite Z.testbit_odd_0. apply orb_true_r.
  - change 1 with (2 ^ 0) at 1. rewrite Z.pow2_bits_false, orb_false_r by lia.
    replace n with (Z.succ (n - 1)) by lia.
    rewrite Z.testbit_odd_succ, Z.div2_bits by lia. reflexivity.
Qed.

Lemma lor1_range : forall r, 0 <= r < 256 -> 0 <= Z.lor r 1 < 256.
Proof. intros r Hr. rewrite lor1_val. lia. Qed.

Section SrcProofs.
Context {C : Type}.
Variable dflt : C.
Variable clen : C -> Z.

Notation src := (src C).
Notation event := (event C).
Notation action := (action C).
Notation step := (step dflt clen).
Notation run := (run dflt clen).
Notation final := (final dflt clen).
Notation handle_timer := (handle_timer dflt clen).
Notation held := (held dflt).
Notation src_inv := (@src_inv C).

Lemma subseq_refl : forall l : list C, subseq l l.
Proof. induction l; [constructor|apply subseq_take; auto]. Qed.

Lemma subseq_nil_l : forall l : list C, subseq [] l.
Proof. induction l; constructor; auto. Qed.

Lemma subseq_trans : forall l1 l2 l3 : list C, subseq l1 l2 -> subseq l2 l3 -> subseq l1 l3.
Proof.
  intros l1 l2 l3 H12 H23. revert l1 H12.
  induction H23; intros l0 H12.
  - inversion H12; constructor.
  - apply subseq_skip. auto.
  - inversion H12; subst.
    + apply subseq_skip. auto.
    + apply subseq_take. auto.
Qed.

Lemma subseq_app : forall l1 l2 m1 m2 : list C,
  subseq l1 l2 -> subseq m1 m2 -> subseq (l1 ++ m1) (l2 ++ m2).
Proof.
  intros l1 l2 m1 m2 H. induction H; simpl; intros; auto.
  - apply subseq_skip; auto.
  - apply subseq_take; auto.
Qed.

Lemma subseq_app_r : forall l m : list C, subseq l (l ++ m).
Proof.
  intros. rewrite <- (app_nil_r l) at 1. apply subseq_app; [apply subseq_refl|apply subseq_nil_l].
Qed.

Lemma subseq_suffix : forall p l : list C, subseq l (p ++ l).
Proof. induction p; simpl; intros; [apply subseq_refl|apply subseq_skip; auto]. Qed.

Lemma subseq_lastn : forall n (l : list C), subseq (lastn n l) l.
Proof.
  intros. destruct (lastn_suffix l n) as [p Hp]. rewrite Hp at 2. apply subseq_suffix.
Qed.

Lemma subseq_In : forall (l1 l2 : list C) x, subseq l1 l2 -> In x l1 -> In x l2.
Proof. intros l1 l2 x H. induction H; simpl; auto. intros [E|I]; auto. Qed.

Lemma subseq_map_sorted : forall (f : C -> Z) l1 l2,
  subseq l1 l2 -> StronglySorted Z.lt (map f l2) -> StronglySorted Z.lt (map f l1).
Proof.
  intros f l1 l2 H. induction H; simpl; intros S; auto.
  - inversion S; auto.
  - inversion S; subst. constructor; auto.
    rewrite Forall_forall in *. intros y Hy. apply H3.
    apply in_map_iff in Hy. destruct Hy as (z & <- & Hz). apply in_map.
    eapply subseq_In; eauto.
Qed.

Lemma subseq_NoDup : forall l1 l2 : list C, subseq l1 l2 -> NoDup l2 -> NoDup l1.
Proof.
  intros l1 l2 H. induction H; intros N; auto.
  - inversion N; auto.
  - inversion N; subst. constructor; auto. intro Hin. apply H2.
    eapply subseq_In; eauto.
Qed.

Lemma inv_new : forall b, src_inv (src_new dflt b).
Proof.
  intros b. unfold src_inv, src_new, usize_max; cbn [reach tries nts].
  repeat split; try lia. destruct b; auto. apply inv_default.
Qed.

(* a due reset: Reset, or Demobilize if the deny flag is set, and no change of state *)
Theorem reset_action : forall st, reset_due st = true ->
  handle_timer st = ((if deny st then [Demobilize] else [Reset]), st).
Proof. intros st H. unfold SrcCore.handle_timer. rewrite H. reflexivity. Qed.

(* reduces the projections of the state and of the pair only: the bodies of [get] and
   [store] stay folded *)
Ltac fields := cbn [fst snd reach tries deny pending nts existsb is_send option_map] in *.

Lemma step_fields : forall st e,
  let st' := snd (step st e) in
  reach st' = match e with
              | Timer => if reset_due st then reach st else (reach st * 2) mod 256
              | Usable _ => if pending st then Z.lor (reach st) 1 else reach st
              | _ => reach st
              end /\
  tries st' = match e with
              | Timer => if reset_due st then tries st else Z.min (tries st + 1) usize_max
              | _ => tries st
              end /\
  deny st' = match e with
             | Usable _ => deny st && negb (pending st)
             | DenyKiss => deny st || pending st && match nts st with None => true | Some _ => false end
             | _ => deny st
             end /\
  (* outstanding after a timer: it was, or a request has just been sent *)
  pending st' = match e with
                | Timer => pending st || existsb is_send (fst (step st e))
                | Usable _ => false
                | _ => pending st
                end /\
  nts st' = match e with
            | Timer => if reset_due st then nts st
                       else option_map (fun s => snd (get dflt s)) (nts st)
            | Usable cs => if pending st then option_map (fun s => fold_left store cs s) (nts st)
                           else nts st
            | StoreCookie c => option_map (fun s => store s c) (nts st)
            | _ => nts st
            end.
Proof.
  intros st e. destruct e; cbn [step].
  - destruct (reset_due st) eqn:Hd.
    { rewrite reset_action by assumption.
      destruct (deny st) eqn:D; fields; rewrite orb_false_r, ?D; repeat split. }
    unfold SrcCore.handle_timer. rewrite Hd.
    destruct (nts st) as [s|]; [|fields; rewrite orb_true_r; repeat split].
    cbn [option_map]. pose proof (get_none dflt s) as Eg. destruct (get dflt s) as [[c|] s'].
    + destruct (_ =? 0); fields; rewrite ?orb_false_r, ?orb_true_r; repeat split.
    + fields. rewrite orb_false_r, (Eg eq_refl). repeat split.
  - unfold handle_usable. destruct (pending st) eqn:Ep; fields;
      rewrite ?Ep, ?andb_false_r, ?andb_true_r; repeat split.
  - unfold handle_deny. destruct (pending st) eqn:Ep.
    + destruct (nts st) eqn:En; fields; rewrite ?orb_false_r, ?orb_true_r, ?En, ?Ep; repeat split.
    + fields. rewrite Ep, orb_false_r. repeat split.
  - repeat split.
  - repeat split.
Qed.

Lemma inv_step : forall st e, src_inv st -> src_inv (snd (step st e)).
Proof.
  intros st e (Hr & Ht & Hn). destruct (step_fields st e) as (Er & Et & _ & _ & En).
  unfold SrcSpec.src_inv. rewrite Er, Et, En. split; [|split].
  - destruct e; try assumption.
    + destruct (reset_due st); [assumption|lia].
    + destruct (pending st); [apply lor1_range|]; assumption.
  - destruct e; try assumption. destruct (reset_due st); [assumption|lia].
  - destruct e; try assumption.
    + destruct (reset_due st); [assumption|].
      destruct (nts st); cbn [option_map]; [apply inv_get|]; assumption.
    + destruct (pending st); [|assumption].
      destruct (nts st); cbn [option_map]; [apply inv_store_many|]; assumption.
    + destruct (nts st); cbn [option_map]; [apply inv_store|]; assumption.
Qed.

Lemma final_cons : forall st e r, final st (e :: r) = final (snd (step st e)) r.
Proof. reflexivity. Qed.

Lemma final_app : forall a b st, final st (a ++ b) = final (final st a) b.
Proof. intros. unfold SrcCore.final. apply fold_left_app. Qed.

Lemma inv_final : forall evs st, src_inv st -> src_inv (final st evs).
Proof.
  induction evs; intros; auto. rewrite final_cons. apply IHevs. apply inv_step; auto.
Qed.

Lemma timer_nts : forall st s, src_inv st -> nts st = Some s -> reset_due st = false ->
  match held st with
  | [] => fst (handle_timer st) = [Reset] /\ held (snd (handle_timer st)) = []
  | c :: rest =>
      held (snd (handle_timer st)) = rest /\
      fst (handle_timer st) =
        (if cookie_cap clen c =? 0 then [Reset]
         else [SendNts c (Z.min (MAX_COOKIES - Z.of_nat (length rest)) (cookie_cap clen c) - 1)])
  end.
Proof.
  intros st s (Hr & Ht & Hn) En Hd. unfold SrcCore.handle_timer, SrcSpec.held. rewrite Hd, En in *.
  destruct (abs_get dflt s Hn) as [Hg1 Hg2]. pose proof (inv_get dflt s Hn) as Hi.
  destruct (get dflt s) as [o s'] eqn:Eg. cbn [fst snd] in *.
  destruct (abs dflt s) as [|c rest] eqn:Ea; cbn [hd_error tl] in *; subst o.
  - cbn [fst snd nts]. split; auto.
  - rewrite (gap_abs dflt s' Hi), Hg2.
    (* a place is free after the get, so the count is 0 exactly when the cap is *)
    assert ((Z.min (MAX_COOKIES - Z.of_nat (length rest)) (cookie_cap clen c) =? 0)
            = (cookie_cap clen c =? 0)) as ->.
    { assert (0 <= cookie_cap clen c) as Hc.
      { unfold cookie_cap. apply Z.min_glb; [|discriminate].
        apply Z.div_pos; [discriminate|]. apply Z.lt_le_trans with 1; [reflexivity|apply Z.le_max_r]. }
      pose proof (abs_bounded dflt s Hn) as Hb. rewrite Ea, NCOOK_8 in Hb. cbn [length] in Hb.
      unfold MAX_COOKIES. clear - Hc Hb. lia. }
    destruct (cookie_cap clen c =? 0); cbn [fst snd nts]; auto.
Qed.

Lemma held_timer : forall st, src_inv st ->
  held (snd (handle_timer st)) = (if reset_due st then held st else tl (held st)) /\
  (sent_of (fst (handle_timer st)) = [] \/
   (reset_due st = false /\ sent_of (fst (handle_timer st)) = firstn 1 (held st))).
Proof.
  intros st Hi. destruct (reset_due st) eqn:Hd.
  - rewrite reset_action by assumption. cbn [fst snd]. split; auto. left. destruct (deny st); reflexivity.
  - destruct (nts st) as [s|] eqn:En.
    + pose proof (timer_nts st s Hi En Hd) as H.
      destruct (held st) as [|c rest] eqn:Eh.
      * destruct H as [H1 H2]. rewrite H1, H2. auto.
      * destruct H as [H1 H2]. rewrite H1, H2. split; auto.
        destruct (_ =? 0); [left|right]; auto.
    + unfold SrcCore.handle_timer, SrcSpec.held. rewrite Hd, En. cbn [fst snd nts]. auto.
Qed.

Lemma held_le : forall st, src_inv st -> (length (held st) <= NCOOK)%nat.
Proof.
  intros st (_ & _ & Hn). unfold SrcSpec.held.
  destruct (nts st); [apply abs_bounded; assumption|simpl; lia].
Qed.

Lemma held_step : forall st e, src_inv st ->
  held (snd (step st e)) =
  match e with
  | Timer => if reset_due st then held st else tl (held st)
  | _ => lastn NCOOK (held st ++ stored_by st e)
  end.
Proof.
  intros st e Hi. pose proof (held_le st Hi) as Hb. pose proof Hi as (_ & _ & Hn).
  destruct (step_fields st e) as (_ & _ & _ & _ & En).
  destruct e; [apply held_timer; assumption|..]; unfold SrcSpec.held in *; rewrite En; unfold stored_by;
    (destruct (nts st) as [s|]; [|destruct (pending st); reflexivity]).
  - (* Usable: stores its cookies if a request is pending *)
    destruct (pending st); cbn [option_map]; [apply abs_store_many; assumption|].
    rewrite app_nil_r, lastn_short; auto.
  - (* DenyKiss: stores nothing *) rewrite app_nil_r, lastn_short; auto.
  - (* Other: stores nothing *) rewrite app_nil_r, lastn_short; auto.
  - (* StoreCookie *) apply abs_store; assumption.
Qed.

Lemma stored_by_delivered : forall (st : src) (e : event), subseq (stored_by st e) (delivered [e]).
Proof.
  intros. unfold stored_by, delivered. simpl. rewrite app_nil_r.
  destruct (nts st); destruct e; try apply subseq_nil_l; try apply subseq_refl.
  destruct (pending st); [apply subseq_refl|apply subseq_nil_l].
Qed.

Lemma stored_subseq : forall (st : src) (e : event),
  subseq (lastn NCOOK (held st ++ stored_by st e)) (held st ++ delivered [e]).
Proof.
  intros. eapply subseq_trans; [apply subseq_lastn|].
  apply subseq_app; [apply subseq_refl|apply stored_by_delivered].
Qed.

(* only a timer sends *)
Lemma sent_untimed : forall st e, e <> Timer -> sent_of (fst (step st e)) = [].
Proof.
  intros st e H. destruct e; [congruence|..]; cbn [step]; unfold handle_usable, handle_deny;
    try destruct (pending st); try destruct (nts st); reflexivity.
Qed.

Lemma sent_step : forall st e, src_inv st ->
  subseq (sent_of (fst (step st e)) ++ held (snd (step st e))) (held st ++ delivered [e]).
Proof.
  intros st e Hi. rewrite held_step by auto.
  destruct e; try (rewrite sent_untimed by discriminate; apply stored_subseq).
  cbn [step]. destruct (held_timer st Hi) as [_ [H|[H1 H2]]].
  - rewrite H. simpl. destruct (reset_due st); [apply subseq_app_r|].
    destruct (held st); [apply subseq_nil_l|]. simpl. apply subseq_skip. apply subseq_app_r.
  - rewrite H2, H1. destruct (held st); simpl; [constructor|]. apply subseq_take. apply subseq_app_r.
Qed.

Lemma run_cons : forall st e r,
  run st (e :: r) = (fst (step st e), snd (step st e)) :: run (snd (step st e)) r.
Proof. intros. cbn [SrcCore.run]. destruct (step st e). reflexivity. Qed.

Lemma delivered_cons : forall (e : event) r, delivered (e :: r) = delivered [e] ++ delivered r.
Proof. intros. unfold delivered. simpl. rewrite app_nil_r. reflexivity. Qed.

(* C13_once_fifo, general form: what was sent, followed by what is still
   held, is a subsequence of what was held at the start followed by what
   arrived *)
Theorem sent_subseq : forall evs st, src_inv st ->
  subseq (sent_cookies (run st evs) ++ held (final st evs)) (held st ++ delivered evs).
Proof.
  induction evs as [|e r IH]; intros st Hi.
  - simpl. rewrite app_nil_r. apply subseq_refl.
  - rewrite run_cons, final_cons, delivered_cons.
    unfold sent_cookies. cbn [flat_map fst]. fold (sent_cookies (run (snd (step st e)) r)).
    rewrite <- app_assoc.
    eapply subseq_trans.
    + apply subseq_app; [apply subseq_refl|]. apply IH. apply inv_step; auto.
    + rewrite !app_assoc. apply subseq_app; [|apply subseq_refl]. apply sent_step; auto.
Qed.

Corollary sent_subseq_new : forall evs b,
  subseq (sent_cookies (run (src_new dflt b) evs)) (delivered evs).
Proof.
  intros. pose proof (sent_subseq evs (src_new dflt b) (inv_new b)) as H.
  assert (held (src_new dflt b) = []) as E by (destruct b; reflexivity).
  rewrite E in H. simpl in H. eapply subseq_trans; [apply subseq_app_r|exact H].
Qed.

(* those kept are the newest of everything that was stored *)
Theorem held_newest : forall evs st, src_inv st ->
  exists p, held st ++ stored dflt clen st evs = p ++ held (final st evs).
Proof.
  induction evs as [|e r IH]; intros st Hi.
  - exists []. simpl. rewrite app_nil_r. reflexivity.
  - rewrite final_cons. cbn [stored].
    destruct (IH (snd (step st e)) (inv_step st e Hi)) as [p Hp].
    assert (exists q, held st ++ stored_by st e = q ++ held (snd (step st e))) as [q Hq].
    { rewrite held_step by auto. destruct e; try apply lastn_suffix.
      unfold stored_by. destruct (nts st); rewrite app_nil_r;
      (destruct (reset_due st); [exists []; reflexivity|]);
      (destruct (held st) as [|c rest]; [exists []; reflexivity|exists [c]; reflexivity]). }
    exists (q ++ p). rewrite app_assoc, Hq, <- !app_assoc. f_equal. exact Hp.
Qed.

End SrcProofs.
