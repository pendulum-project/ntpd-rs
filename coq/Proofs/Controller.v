(* Lemmas about Model/Controller.v: the integer threshold logic (C01), what one operation and what a
   history can do to the clock (step_shape, trace_invariant; C01 and C02 both rest on them), and the
   accumulated-steps invariant. *)
From V Require Import Model.TimeTypes Model.Controller Gen.ConstController Proofs.Common.
From Coq Require Import Floats.
Open Scope Z_scope.

(* the census of the modelled sites: one step_clock call, one set_frequency call, one
   check before the step, two exits, one write of each state variable *)
Lemma census :
  (STEP_CLOCK_SITES, SET_FREQUENCY_SITES, CHECK_OFFSET_STEER_CALLS, THRESHOLD_EXIT_SITES,
   THRESHOLD_PANIC_SITES, IN_STARTUP_WRITES, ACCUMULATED_STEPS_WRITES, FREQ_OFFSET_WRITES,
   DESIRED_FREQ_WRITES, STEER_OFFSET_CALLS, STEER_FREQUENCY_CALLS, CHANGE_DESIRED_FREQUENCY_CALLS)
  = (1, 1, 1, 2, 2, 1, 1, 1, 1, 1, 2, 2).
Proof. reflexivity. Qed.

(* ntpd/src/daemon/clock.rs: (seconds, nanos) = as_seconds_nanos(d) is the step rounded down to a
   whole nanosecond *)
Lemma d_secs_nanos_spec : forall d, in_i64 d ->
  let (s, n) := d_secs_nanos d in
  s * 1000000000 + n = (d * 1000000000) / 2 ^ 32 /\ 0 <= n < 1000000000 /\
  - 2 ^ 31 <= s < 2 ^ 31.
Proof.
  intros d H. unfold d_secs_nanos, in_i64 in H |- *.
  assert (Hq : - 2 ^ 31 <= d / 2 ^ 32 < 2 ^ 31).
  { split; [apply Z.div_le_lower_bound | apply Z.div_lt_upper_bound]; lia. }
  rewrite to_signed_small by lia.
  pose proof (Z.mod_pos_bound d (2 ^ 32) ltac:(lia)) as Hm.
  pose proof (Z.div_mod d (2 ^ 32) ltac:(lia)) as Hdm.
  repeat split; try lia.
  - rewrite Hdm at 3.
    replace ((2 ^ 32 * (d / 2 ^ 32) + d mod 2 ^ 32) * 1000000000)
      with ((d / 2 ^ 32) * 1000000000 * 2 ^ 32 + (d mod 2 ^ 32) * 1000000000) by ring.
    rewrite Z.div_add_l by lia. reflexivity.
  - apply Z.div_pos; lia.
  - apply Z.div_lt_upper_bound; lia.
Qed.

Lemma from_seconds_range : forall x, in_i64 (from_seconds x).
Proof.
  intro x.
  assert (Hmin : in_i64 i64_min) by (unfold in_i64, i64_min; lia).
  assert (Hmax : in_i64 i64_max) by (unfold in_i64, i64_max; lia).
  assert (H0 : in_i64 0) by (unfold in_i64; lia).
  unfold from_seconds. destruct (Prim2SF x) as [s | s | | s m e]; auto.
  - destruct s; auto.
  - cbv zeta. destruct (_ <? _); auto. destruct (_ <? _); auto.
    apply (to_signed_range 64). lia.
Qed.

(* the saturating and the wrapping version of an i64 operation agree with the mathematical value v
   clipped at i64::MAX, the wrapping one except where v is 2^63 *)
Lemma sat_or_wrap : forall (sat : bool) v,
  - 2 ^ 63 < v <= 2 ^ 63 -> (sat = true \/ v <> 2 ^ 63) ->
  (if sat then sat_i64 v else to_signed 64 v) = Z.min v i64_max.
Proof.
  intros sat v H Hs. unfold sat_i64, clampZ, i64_min, i64_max.
  destruct sat; [lia |]. destruct Hs as [Hs | Hs]; [discriminate |].
  rewrite to_signed_small; lia.
Qed.

Lemma k_abs_exact : forall ar d, in_i64 d -> (sat_abs ar = true \/ d <> i64_min) ->
  k_abs ar d = Z.min (Z.abs d) i64_max.
Proof.
  intros ar d H Hs. unfold in_i64, i64_min in *.
  apply sat_or_wrap; [lia | destruct Hs; [left; assumption | right; lia]].
Qed.

Lemma k_neg_exact : forall ar b, in_i64 b -> (sat_neg ar = true \/ b <> i64_min) ->
  k_neg ar b = Z.min (- b) i64_max.
Proof.
  intros ar b H Hs. unfold in_i64, i64_min in *.
  apply sat_or_wrap; [lia | destruct Hs; [left; assumption | right; lia]].
Qed.

Lemma within_iff : forall t d, within t d <->
  match fwd t with Some f => d < f | None => True end /\
  match bwd t with Some b => - b < d | None => True end.
Proof.
  intros t d. unfold within.
  destruct (fwd t) as [f |], (bwd t) as [b |]; split; intros [H1 H2]; split;
    try (intros ? [= <-]); auto.
Qed.

(* is_within computes the mathematical threshold test *)
Lemma is_within_spec : forall ar t d,
  thr_wf t -> neg_ok ar t -> in_i64 d ->
  (is_within ar t d = true <-> within t d).
Proof.
  intros ar t d [Hf Hb] Hn Hd. rewrite within_iff. unfold is_within. rewrite andb_true_iff.
  apply Morphisms_Prop.and_iff_morphism.
  - destruct (fwd t); [apply Z.ltb_lt | tauto].
  - destruct (bwd t) as [b |] eqn:Eb; [| tauto].
    rewrite Z.ltb_lt, k_neg_exact.
    + cbn in Hb. unfold in_i64, i64_max in *. lia.
    + exact Hb.
    + destruct Hn as [Hn | Hn]; [left; exact Hn | right; congruence].
Qed.

Lemma within_dec : forall t d, within t d \/ ~ within t d.
Proof.
  intros t d. rewrite within_iff. destruct (fwd t), (bwd t); lia.
Qed.

(* accumulated_steps is a non-negative i64 *)
Definition acc_ok (s : st) : Prop := 0 <= acc s <= i64_max.

Lemma acc_add : forall ar s d,
  acc_ok s -> in_i64 d -> (sat_abs ar = true \/ d <> i64_min) ->
  dadd (acc s) (k_abs ar d) = Z.min (acc s + Z.abs d) i64_max.
Proof.
  intros ar s d Ha Hd Hs. rewrite (k_abs_exact ar d Hd Hs).
  unfold acc_ok, dadd, sat_i64, clampZ, i64_min, i64_max in *. lia.
Qed.

(* the complete behaviour of the threshold check, in mathematical terms *)
Lemma check_step_spec : forall ar c s d,
  cfg_wf c -> neg_ok ar (c_startup c) -> neg_ok ar (c_single c) ->
  in_i64 d -> acc_ok s -> (sat_abs ar = true \/ d <> i64_min) ->
  (violates c s d /\ exists p, check_step ar c s d = Panic p /\ is_exit p = true) \/
  (~ violates c s d /\
   check_step ar c s d =
     Ok (if in_startup s then s else set_acc s (Z.min (acc s + Z.abs d) i64_max))).
Proof.
  intros ar c s d (Hws & Hwg & Hwa) Hns Hng Hd Ha Hs.
  unfold check_step, violates.
  destruct (in_startup s).
  - pose proof (is_within_spec ar (c_startup c) d Hws Hns Hd) as W.
    destruct (is_within ar (c_startup c) d).
    + right. split; [intro H; apply H; apply W; auto | reflexivity].
    + left. split; [intro H; apply W in H; discriminate |].
      exists site_exit_startup. split; reflexivity.
  - pose proof (is_within_spec ar (c_single c) d Hwg Hng Hd) as W.
    rewrite (acc_add ar s d Ha Hd Hs).
    destruct (is_within ar (c_single c) d); cbn [negb orb].
    + destruct (c_acc c) as [a |] eqn:Ea.
      * destruct (Z.ltb_spec a (Z.min (acc s + Z.abs d) i64_max)).
        -- left. split; [right; exists a; auto |].
           exists site_exit_running. split; reflexivity.
        -- right. split; [| reflexivity].
           intros [H1 | (a' & [= <-] & H1)]; [apply H1, W; auto | lia].
      * right. split; [| reflexivity].
        intros [H1 | (a' & E & H1)]; [apply H1, W; auto | discriminate].
    + left. split; [left; intro H; apply W in H; discriminate |].
      exists site_exit_running. split; reflexivity.
Qed.

(* a request above step_threshold: exit without a step exactly when it would violate a threshold,
   otherwise exactly one step of the converted request *)
Lemma steer_offset_spec : forall ar c s ch fd,
  cfg_wf c -> neg_ok ar (c_startup c) -> neg_ok ar (c_single c) -> acc_ok s ->
  PrimFloat.ltb (c_step_threshold c) (PrimFloat.abs ch) = true ->
  (sat_abs ar = true \/ from_seconds ch <> i64_min) ->
  (violates c s (from_seconds ch) /\
   exists p, steer_offset ar c s ch fd = ([], Panic p) /\ is_exit p = true) \/
  (~ violates c s (from_seconds ch) /\
   steer_offset ar c s ch fd =
     ([Step (from_seconds ch)],
      Ok (if in_startup s then s
          else set_acc s (Z.min (acc s + Z.abs (from_seconds ch)) i64_max)))).
Proof.
  intros ar c s ch fd Hw Hns Hng Ha Hlt Hs.
  unfold steer_offset. rewrite Hlt.
  destruct (check_step_spec ar c s (from_seconds ch) Hw Hns Hng (from_seconds_range ch) Ha Hs)
    as [(V & p & E & X) | (V & E)]; rewrite E.
  - left. split; auto. exists p. auto.
  - right. split; auto.
Qed.

(* without any assumption on the arithmetic: what a passed check guarantees *)
Lemma check_step_ok : forall ar c s d s',
  check_step ar c s d = Ok s' ->
  if in_startup s then is_within ar (c_startup c) d = true /\ s' = s
  else is_within ar (c_single c) d = true /\
       s' = set_acc s (dadd (acc s) (k_abs ar d)) /\
       (forall a, c_acc c = Some a -> dadd (acc s) (k_abs ar d) <= a).
Proof.
  intros ar c s d s' H. unfold check_step in H. destruct (in_startup s).
  - destruct (is_within ar (c_startup c) d); inversion H; auto.
  - destruct (is_within ar (c_single c) d); cbn [negb orb] in H; [| discriminate].
    destruct (c_acc c) as [a |].
    + destruct (Z.ltb_spec a (dadd (acc s) (k_abs ar d))); inversion H.
      repeat split; auto. intros a' [= <-]. lia.
    + inversion H. repeat split; auto. discriminate.
Qed.

(* it writes no field but accumulated_steps *)
Lemma check_step_keeps : forall ar c s d s', check_step ar c s d = Ok s' ->
  in_startup s' = in_startup s /\ freq_offset s' = freq_offset s /\ desired_freq s' = desired_freq s.
Proof.
  intros ar c s d s' H. apply check_step_ok in H.
  destruct (in_startup s) eqn:E; [destruct H as [_ ->] | destruct H as (_ & -> & _)]; cbn; auto.
Qed.

Lemma check_step_panic_exit : forall ar c s d p,
  check_step ar c s d = Panic p -> is_exit p = true.
Proof.
  intros ar c s d p H. unfold check_step in H.
  destruct (in_startup s).
  - destruct (is_within ar (c_startup c) d); inversion H; reflexivity.
  - destruct (negb (is_within ar (c_single c) d) || _); inversion H; reflexivity.
Qed.

Lemma if2_cases : forall {X} (b1 b2 : bool) (A B C x : X),
  (if b1 then A else if b2 then B else C) = x -> A = x \/ (b2 = true /\ B = x) \/ C = x.
Proof. intros X b1 b2 A B C x H. destruct b1; [auto |]. destruct b2; auto. Qed.

Lemma seq_cases : forall o k cs r, seq o k = (cs, r) ->
  (exists cs1 s1 cs2, o = (cs1, Ok s1) /\ k s1 = (cs2, r) /\ cs = cs1 ++ cs2) \/
  (o = (cs, r) /\ forall s', r <> Ok s').
Proof.
  intros [cs1 [s1 | e | p]] k cs r H; cbn in H.
  - destruct (k s1) as [cs2 r2] eqn:K. inversion H; subst. left. exists cs1, s1, cs2. auto.
  - right. inversion H. split; [reflexivity | discriminate].
  - right. inversion H. split; [reflexivity | discriminate].
Qed.

(* the argument steer_frequency hands to the clamp *)
Definition steer_arg (f change : float) : float :=
  PrimFloat.sub (PrimFloat.mul (PrimFloat.add fone f) (PrimFloat.add fone change)) fone.

Lemma steer_frequency_cases : forall c s ch cs r,
  steer_frequency c s ch = (cs, r) ->
  (exists nf, f_clamp (steer_arg (freq_offset s) ch) (PrimFloat.opp (c_max_freq c)) (c_max_freq c) = Ok nf /\
              cs = [SetFreq nf] /\ r = Ok (set_freq_offset s nf)) \/
  (cs = [] /\ forall s', r <> Ok s').
Proof.
  intros c s ch cs r H. unfold steer_frequency in H. fold (steer_arg (freq_offset s) ch) in H.
  destruct (f_clamp _ _ _) as [nf | e | p]; inversion H; subst.
  - left. eauto.
  - right. split; [reflexivity | discriminate].
  - right. split; [reflexivity | discriminate].
Qed.

Lemma steer_frequency_desired : forall c s ch cs s',
  steer_frequency c s ch = (cs, Ok s') -> desired_freq s' = desired_freq s.
Proof.
  intros c s ch cs s' H.
  destruct (steer_frequency_cases _ _ _ _ _ H) as [(nf & _ & _ & [= ->]) | [_ N]];
    [reflexivity | destruct (N s' eq_refl)].
Qed.

Lemma steer_offset_cases : forall ar c s ch fd cs r,
  steer_offset ar c s ch fd = (cs, r) ->
  (PrimFloat.ltb (c_step_threshold c) (PrimFloat.abs ch) = true /\
   exists s1, check_step ar c s (from_seconds ch) = Ok s1 /\
              cs = [Step (from_seconds ch)] /\ r = Ok s1) \/
  (PrimFloat.ltb (c_step_threshold c) (PrimFloat.abs ch) = false /\
   (exists u, duration_check (PrimFloat.div (PrimFloat.abs ch) (slew_freq c ch)) = Ok u) /\
   change_desired_frequency c s (PrimFloat.mul (PrimFloat.opp (slew_freq c ch)) (f_signum ch)) fd
     = (cs, r)) \/
  (cs = [] /\ forall s', r <> Ok s').
Proof.
  intros ar c s ch fd cs r H. unfold steer_offset in H.
  destruct (PrimFloat.ltb _ _).
  - destruct (check_step _ _ _ _) as [s1 | e | p]; inversion H; subst.
    + left. eauto.
    + right; right. split; [reflexivity | discriminate].
    + right; right. split; [reflexivity | discriminate].
  - destruct (duration_check _) as [u | e | p].
    + right; left. eauto.
    + right; right. inversion H. split; [reflexivity | discriminate].
    + right; right. inversion H. split; [reflexivity | discriminate].
Qed.

(* freq_delta of update_clock, its test for a frequency steer, and the change it then hands to
   steer_frequency *)
Definition upd_fdl (s : st) (e : est) := PrimFloat.sub (e_freq e) (desired_freq s).
Definition upd_freq_due (c : cfg) (s : st) (e : est) : bool :=
  PrimFloat.ltb (PrimFloat.mul (PrimFloat.sqrt (e_p11 e)) (c_freq_thr c)) (PrimFloat.abs (upd_fdl s e)).
Definition upd_change (c : cfg) (s : st) (e : est) :=
  PrimFloat.sub (upd_fdl s e)
    (PrimFloat.mul (PrimFloat.mul (PrimFloat.sqrt (e_p11 e)) (c_freq_left c)) (f_signum (upd_fdl s e))).

(* update_clock: one of the two steering calls or none, framed by calls that neither step nor set
   the frequency; in_startup is cleared when the steering call returns *)
Lemma update_clock_cases : forall ar c s e l cs r,
  update_clock ar c s e l = (cs, r) ->
  exists cs1 r1,
    ((exists ch, steer_offset ar c s ch (upd_fdl s e) = (cs1, r1)) \/
     (upd_freq_due c s e = true /\ steer_frequency c s (upd_change c s e) = (cs1, r1)) \/
     ([], Ok s) = (cs1, r1)) /\
    steps_of cs = steps_of cs1 /\ freqs_of cs = freqs_of cs1 /\
    r = match r1 with Ok s1 => Ok (set_startup s1 false) | _ => r1 end.
Proof.
  intros ar c s e l cs r H. unfold update_clock in H. cbv zeta in H.
  fold (upd_fdl s e) in H. fold (upd_change c s e) in H. fold (upd_freq_due c s e) in H.
  apply seq_cases in H. destruct H as [(pre & s0 & cs0 & E & H & ->) | [[= _ <-] N]]; [| destruct (N s eq_refl)].
  assert (Hpre : steps_of pre = [] /\ freqs_of pre = []).
  { injection E as <- _. destruct (in_startup s); split; reflexivity. }
  clear E. unfold steps_of, freqs_of in *. rewrite !flat_map_app. destruct Hpre as [-> ->].
  apply seq_cases in H. destruct H as [(cs1 & s1 & post & E & [= <- <-] & ->) | [E N]];
    apply if2_cases in E.
  - exists cs1, (Ok s1). split; [destruct E as [E | E]; [left; eauto | right; exact E] |].
    rewrite !flat_map_app. destruct l; cbn; rewrite !app_nil_r; auto.
  - exists cs0, r. split; [destruct E as [E | E]; [left; eauto | right; exact E] |].
    destruct r as [s1 | |]; [destruct (N s1 eq_refl) | auto ..].
Qed.

(* what a slew asks of steer_frequency: the new desired_freq d and the change x *)
Definition slew_request (c : cfg) (s : st) (ch fd d x : float) : Prop :=
  PrimFloat.ltb (c_step_threshold c) (PrimFloat.abs ch) = false /\
  (exists u, duration_check (PrimFloat.div (PrimFloat.abs ch) (slew_freq c ch)) = Ok u) /\
  d = PrimFloat.mul (PrimFloat.opp (slew_freq c ch)) (f_signum ch) /\
  x = PrimFloat.add (PrimFloat.sub (desired_freq s) d) fd.

(* ... and what each operation may ask *)
Definition request (c : cfg) (s : st) (o : op) (d x : float) : Prop :=
  match o with
  | SteerFreq ch => d = desired_freq s /\ x = ch
  | TimeUpdate => d = fzero /\ x = PrimFloat.add (PrimFloat.sub (desired_freq s) fzero) fzero
  | SteerOffset ch fd => slew_request c s ch fd d x
  | Update (Some e) _ =>
      (exists ch, slew_request c s ch (upd_fdl s e) d x) \/
      (d = desired_freq s /\ x = upd_change c s e /\ upd_freq_due c s e = true)
  | Update None _ => False
  end.

(* a steer_offset at or below step_threshold that returns has made such a request, and desired_freq
   is what it asked for *)
Lemma steer_offset_slew : forall ar c s ch fd cs s',
  PrimFloat.ltb (c_step_threshold c) (PrimFloat.abs ch) = false ->
  steer_offset ar c s ch fd = (cs, Ok s') ->
  exists x, slew_request c s ch fd (desired_freq s') x.
Proof.
  intros ar c s ch fd cs s' Hlt H.
  destruct (steer_offset_cases _ _ _ _ _ _ _ H) as [(Hlt' & _) | [(_ & D & H') | [_ N]]];
    [congruence | | destruct (N s' eq_refl)].
  rewrite (steer_frequency_desired _ _ _ _ _ H'). eexists. repeat split; assumption.
Qed.

(* s' is s1 up to in_startup, which is cleared when b is set *)
Definition after (b : bool) (s1 s' : st) : Prop :=
  acc s' = acc s1 /\ freq_offset s' = freq_offset s1 /\ desired_freq s' = desired_freq s1 /\
  in_startup s' = if b then false else in_startup s1.

(* The outcome of one operation begun in s, seen through the steps it makes, the frequencies it
   sets and its result: it fails without either; or it does neither; or it makes one step that
   passed check_step in s, which writes accumulated_steps only; or it sets one frequency, a clamp
   output, having first set desired_freq to d.  R says which d and which change x may occur, b
   whether in_startup is cleared. *)
Inductive shape (ar : arith) (c : cfg) (s : st) (b : bool) (R : float -> float -> Prop) :
  list Z -> list float -> res st -> Prop :=
| sh_fail : forall r, (forall s', r <> Ok s') -> shape ar c s b R [] [] r
| sh_none : forall s', after b s s' -> shape ar c s b R [] [] (Ok s')
| sh_step : forall ch s1 s',
    check_step ar c s (from_seconds ch) = Ok s1 -> after b (set_acc s (acc s1)) s' ->
    shape ar c s b R [from_seconds ch] [] (Ok s')
| sh_freq : forall d x nf s',
    R d x ->
    f_clamp (steer_arg (freq_offset s) x) (PrimFloat.opp (c_max_freq c)) (c_max_freq c) = Ok nf ->
    after b (set_freq_offset (set_desired s d) nf) s' ->
    shape ar c s b R [] [nf] (Ok s').

(* steer_frequency runs in s0, which is s with desired_freq already set to d *)
Lemma steer_frequency_shape : forall ar c s s0 (R : float -> float -> Prop) d x cs r,
  after false (set_desired s d) s0 -> R d x ->
  steer_frequency c s0 x = (cs, r) -> shape ar c s false R (steps_of cs) (freqs_of cs) r.
Proof.
  intros ar c s s0 R d x cs r (Ha & Hf & Hd & Hi) HR H.
  destruct (steer_frequency_cases _ _ _ _ _ H) as [(nf & Hc & -> & ->) | [-> N]]; [| apply sh_fail, N].
  rewrite Hf in Hc. apply (sh_freq _ _ _ _ _ d x nf); auto. repeat split; assumption.
Qed.

Lemma steer_offset_shape : forall ar c s (R : float -> float -> Prop) ch fd cs r,
  (forall d x, slew_request c s ch fd d x -> R d x) ->
  steer_offset ar c s ch fd = (cs, r) -> shape ar c s false R (steps_of cs) (freqs_of cs) r.
Proof.
  intros ar c s R ch fd cs r HR H.
  destruct (steer_offset_cases _ _ _ _ _ _ _ H) as [(_ & s1 & E & -> & ->) | [(Hlt & D & H') | [-> N]]].
  - apply (sh_step _ _ _ _ _ ch s1); [exact E |].
    destruct (check_step_keeps _ _ _ _ _ E) as (Hi & Hf & Hd). repeat split; assumption.
  - eapply steer_frequency_shape; [| | exact H']; [repeat split | apply HR; repeat split; assumption].
  - apply sh_fail, N.
Qed.

Lemma shape_clear : forall ar c s (R : float -> float -> Prop) ss fs r1,
  shape ar c s false R ss fs r1 ->
  shape ar c s true R ss fs (match r1 with Ok s1 => Ok (set_startup s1 false) | _ => r1 end).
Proof.
  assert (K : forall s1 s', after false s1 s' -> after true s1 (set_startup s' false)).
  { intros s1 s' (A1 & A2 & A3 & _). repeat split; assumption. }
  intros ar c s R ss fs r1 [r N | s' A | ch s1 s' E A | d x nf s' HR Hc A].
  - apply sh_fail. destruct r as [s1 | |]; [destruct (N s1 eq_refl) | discriminate ..].
  - apply sh_none, K, A.
  - apply (sh_step _ _ _ _ _ ch s1); auto.
  - apply (sh_freq _ _ _ _ _ d x nf); auto.
Qed.

Lemma step_shape : forall ar c s o cs r,
  step ar c s o = (cs, r) ->
  shape ar c s (is_consensus_update o) (request c s o) (steps_of cs) (freqs_of cs) r.
Proof.
  intros ar c s o cs r H.
  destruct o as [[e |] l | | ch fd | ch]; cbn [step is_consensus_update] in *.
  - destruct (update_clock_cases _ _ _ _ _ _ _ H) as (cs1 & r1 & Hcase & -> & -> & ->).
    apply shape_clear. destruct Hcase as [[ch Hcase] | [[Hlt Hcase] | [= <- <-]]].
    + apply (steer_offset_shape _ _ _ _ _ _ _ _ (fun d x Hq => or_introl (ex_intro _ ch Hq)) Hcase).
    + eapply steer_frequency_shape; [| | exact Hcase]; [repeat split | right; auto].
    + apply sh_none. repeat split.
  - injection H as <- <-. apply sh_none. repeat split.
  - eapply steer_frequency_shape; [| | exact H]; [repeat split | split; reflexivity].
  - apply (steer_offset_shape _ _ _ _ _ _ _ _ (fun d x Hq => Hq) H).
  - eapply steer_frequency_shape; [| | exact H]; [repeat split | split; reflexivity].
Qed.

Lemma shape_startup : forall ar c s b (R : float -> float -> Prop) ss fs s',
  shape ar c s b R ss fs (Ok s') -> in_startup s' = if b then false else in_startup s.
Proof.
  intros ar c s b R ss fs s' H.
  inversion H as [r0 N | s1 A | ch s1 s2 Hc A | d x nf s1 HR Hx A]; subst;
    [destruct (N s' eq_refl) | apply A ..].
Qed.

(* an operation that does not return a state (exit, panic or error) has not stepped the clock *)
Lemma step_not_ok_no_step : forall ar c s o cs r,
  step ar c s o = (cs, r) -> (forall s', r <> Ok s') -> steps_of cs = [].
Proof.
  intros ar c s o cs r H N. apply step_shape in H.
  inversion H; subst; auto; destruct (N _ eq_refl).
Qed.

(* a steer_offset that ends in one of the two threshold exits of check_offset_steer, or in a panic
   of the slew branch, has made no call *)
Lemma steer_offset_exit_calls : forall ar c s ch fd cs p,
  steer_offset ar c s ch fd = (cs, Panic p) -> cs = [].
Proof.
  intros ar c s ch fd cs p H.
  destruct (steer_offset_cases _ _ _ _ _ _ _ H) as [(_ & s1 & _ & _ & [=]) | [(_ & _ & H') | [-> _]]]; auto.
  destruct (steer_frequency_cases _ _ _ _ _ H') as [(nf & _ & _ & [=]) | [-> _]]. reflexivity.
Qed.

Lemma trace_cons : forall ar c s o r,
  trace ar c s (o :: r) =
  match step ar c s o with
  | (cs, Ok s') => let (t, e) := trace ar c s' r in ((s, cs) :: t, e)
  | (cs, x) => ([(s, cs)], x)
  end.
Proof. reflexivity. Qed.

(* run is the trace without the annotation *)
Lemma run_trace : forall ar c ops s,
  run ar c s ops = (flat_map snd (fst (trace ar c s ops)), snd (trace ar c s ops)).
Proof.
  induction ops as [| o r IH]; intro s; [reflexivity |].
  cbn [run]. rewrite trace_cons. unfold seq.
  destruct (step ar c s o) as [cs [s' | e | p]]; cbn.
  - rewrite IH. destruct (trace ar c s' r) as [t e]. reflexivity.
  - rewrite app_nil_r. reflexivity.
  - rewrite app_nil_r. reflexivity.
Qed.

(* nothing happens after an exit or a panic *)
Lemma run_stops : forall ar c ops1 ops2 s,
  (forall s', snd (run ar c s ops1) <> Ok s') ->
  run ar c s (ops1 ++ ops2) = run ar c s ops1.
Proof.
  induction ops1 as [| o r IH]; intros ops2 s N.
  - cbn in N. exfalso. eapply N; eauto.
  - cbn [app run] in *. unfold seq in *.
    destruct (step ar c s o) as [cs1 [s' | e | p]]; auto.
    rewrite (IH ops2 s'); auto.
    intros s2 E. destruct (run ar c s' r) as [cs2 r2]. cbn in *. eapply N; eauto.
Qed.

(* An invariant I of the states a history passes through, established operation by operation,
   together with what it gives about the calls each operation makes (P). *)
Lemma trace_invariant : forall ar c (I : st -> Prop) (P : st * list call -> Prop) ops,
  (forall s o cs r, In o ops -> I s -> step ar c s o = (cs, r) ->
     P (s, cs) /\ forall s', r = Ok s' -> I s') ->
  forall s, I s ->
    Forall (fun x => I (fst x) /\ P x) (fst (trace ar c s ops)) /\
    (forall s', snd (trace ar c s ops) = Ok s' -> I s').
Proof.
  intros ar c I P. induction ops as [| o ops IH]; intros Hstep s HI.
  - split; [constructor | intros s' [= <-]; exact HI].
  - rewrite trace_cons. destruct (step ar c s o) as [cs r] eqn:E.
    destruct (Hstep s o cs r (or_introl eq_refl) HI E) as [HP HI'].
    destruct r as [s1 | e | p]; [| split; [repeat constructor; auto | discriminate] ..].
    specialize (IH (fun s o cs r H => Hstep s o cs r (or_intror H)) s1 (HI' s1 eq_refl)).
    destruct (trace ar c s1 ops) as [t x]. destruct IH as [IH1 IH2].
    split; [constructor; auto | exact IH2].
Qed.

Lemma Forall_freqs_trace : forall (P : float -> Prop) (t : list (st * list call)),
  Forall (fun x => Forall P (freqs_of (snd x))) t -> Forall P (freqs_of (flat_map snd t)).
Proof.
  induction 1 as [| x t Hx _ IH]; [constructor |].
  cbn [flat_map]. unfold freqs_of in *. rewrite flat_map_app. apply Forall_app. auto.
Qed.

(* the set_frequency arguments of a history, through an invariant of its states *)
Lemma run_freqs_forall : forall ar c (I : st -> Prop) (P : float -> Prop) ops,
  (forall s o cs r, In o ops -> I s -> step ar c s o = (cs, r) ->
     Forall P (freqs_of cs) /\ forall s', r = Ok s' -> I s') ->
  forall s, I s -> Forall P (freqs_of (fst (run ar c s ops))).
Proof.
  intros ar c I P ops H s HI. rewrite run_trace. apply Forall_freqs_trace.
  eapply Forall_impl;
    [| apply (trace_invariant ar c I (fun x => Forall P (freqs_of (snd x))) ops H s HI)].
  intros x [_ Hx]. exact Hx.
Qed.

(* the steps of one entry of a trace are i64 values that passed the threshold test of its state *)
Definition step_facts (ar : arith) (c : cfg) (x : st * list call) : Prop :=
  forall d, In d (steps_of (snd x)) ->
    in_i64 d /\
    is_within ar (if in_startup (fst x) then c_startup c else c_single c) d = true.

(* every step of a history passed the threshold test of the state it was made in *)
Lemma trace_step_facts : forall ar c ops s,
  Forall (step_facts ar c) (fst (trace ar c s ops)).
Proof.
  intros ar c ops s.
  eapply Forall_impl; [| apply (trace_invariant ar c (fun _ => True) (step_facts ar c) ops); [| exact I]].
  - intros x [_ H]. exact H.
  - intros s0 o cs r _ _ E. split; [| auto].
    apply step_shape in E. intros d Hd. cbn [fst snd] in *.
    inversion E as [r0 N Es | s' A Es | ch s1 s' Hc A Es | d0 x nf s' HR Hx A Es];
      rewrite <- Es in Hd.
    1, 2, 4: destruct Hd.
    destruct Hd as [<- | []]. split; [apply from_seconds_range |].
    apply check_step_ok in Hc. destruct (in_startup s0); apply Hc.
Qed.

(* every step lies within the threshold in force when it was made: the startup threshold while
   in_startup is set (b = true), the single-step threshold afterwards *)
Lemma steps_within : forall ar c ops s (b : bool),
  let t0 := if b then c_startup c else c_single c in
  thr_wf t0 -> neg_ok ar t0 ->
  Forall (fun x => in_startup (fst x) = b -> Forall (within t0) (steps_of (snd x)))
         (fst (trace ar c s ops)).
Proof.
  intros ar c ops s b t0 Hw Hn.
  eapply Forall_impl; [| apply trace_step_facts]. intros x Hx E.
  apply Forall_forall. intros d Hd. destruct (Hx d Hd) as [R W]. rewrite E in W.
  apply (is_within_spec ar t0 d Hw Hn R). exact W.
Qed.

Lemma startup_steps_within : forall ar c ops s,
  cfg_wf c -> neg_ok ar (c_startup c) ->
  Forall (within (c_startup c)) (startup_steps (fst (trace ar c s ops))).
Proof.
  intros ar c ops s (Hw & _) Hn. apply Forall_flat_map.
  eapply Forall_impl; [| apply (steps_within ar c ops s true Hw Hn)]. intros x Hx. cbv beta in Hx.
  destruct (in_startup (fst x)); [exact (Hx eq_refl) | constructor].
Qed.

Lemma later_steps_within : forall ar c ops s,
  cfg_wf c -> neg_ok ar (c_single c) ->
  Forall (within (c_single c)) (later_steps (fst (trace ar c s ops))).
Proof.
  intros ar c ops s (_ & Hw & _) Hn. apply Forall_flat_map.
  eapply Forall_impl; [| apply (steps_within ar c ops s false Hw Hn)]. intros x Hx. cbv beta in Hx.
  destruct (in_startup (fst x)); [constructor | exact (Hx eq_refl)].
Qed.

Lemma sum_abs_app : forall a b, sum_abs (a ++ b) = sum_abs a + sum_abs b.
Proof.
  induction a as [| x a IH]; intro b; [reflexivity |].
  change (Z.abs x + sum_abs (a ++ b) = Z.abs x + sum_abs a + sum_abs b). rewrite IH. lia.
Qed.

Lemma sum_abs_nonneg : forall l, 0 <= sum_abs l.
Proof.
  induction l as [| x l IH]; [cbn; lia |].
  change (0 <= Z.abs x + sum_abs l). lia.
Qed.

(* one completed operation: accumulated_steps grows by the steps made outside startup, clipped at
   i64::MAX, and stays below the accumulated threshold *)
Lemma step_acc : forall ar c s o cs s1,
  step ar c s o = (cs, Ok s1) -> acc_ok s ->
  (sat_abs ar = true \/
   Forall (fun d => d <> i64_min) (if in_startup s then [] else steps_of cs)) ->
  acc s1 = Z.min (acc s + sum_abs (if in_startup s then [] else steps_of cs)) i64_max /\
  (forall a, c_acc c = Some a -> acc s <= a -> acc s1 <= a).
Proof.
  intros ar c s o cs s1 E Ha Hs. apply step_shape in E.
  inversion E as [r0 N Es | s' A Es | ch s2 s' Hc A Es | d x nf s' HR Hx A Es]; subst;
    [destruct (N s1 eq_refl) | ..]; rewrite <- Es in *; destruct A as (-> & _).
  - unfold acc_ok in Ha. destruct (in_startup s); change (sum_abs []) with 0; split; intros; lia.
  - cbn [acc set_acc]. apply check_step_ok in Hc. destruct (in_startup s).
    + destruct Hc as [_ ->]. unfold acc_ok in Ha. change (sum_abs []) with 0. split; intros; lia.
    + destruct Hc as (_ & -> & Hle). cbn [acc set_acc] in *.
      assert (Hd : sat_abs ar = true \/ from_seconds ch <> i64_min).
      { destruct Hs as [Hs | Hs]; [left; exact Hs | right; inversion Hs; assumption]. }
      change (sum_abs [from_seconds ch]) with (Z.abs (from_seconds ch) + 0).
      rewrite Z.add_0_r, <- (acc_add ar s _ Ha (from_seconds_range ch) Hd).
      split; [reflexivity | intros a Ea _; exact (Hle a Ea)].
  - unfold acc_ok in Ha. cbn [acc set_freq_offset set_desired].
    destruct (in_startup s); change (sum_abs []) with 0; split; intros; lia.
Qed.

(* the accumulated-step invariant: accumulated_steps is the mathematical sum of the
   later steps (clipped at i64::MAX), and it never passes the threshold *)
Lemma accumulated_invariant : forall ar c ops s,
  acc_ok s ->
  (sat_abs ar = true \/ Forall (fun d => d <> i64_min) (later_steps (fst (trace ar c s ops)))) ->
  (forall s', snd (trace ar c s ops) = Ok s' ->
     acc s' = Z.min (acc s + sum_abs (later_steps (fst (trace ar c s ops)))) i64_max) /\
  (forall a, c_acc c = Some a -> a < i64_max -> acc s <= a ->
     acc s + sum_abs (later_steps (fst (trace ar c s ops))) <= a).
Proof.
  induction ops as [| o r IH]; intros s Ha Hs; unfold acc_ok in *.
  - cbn [trace fst snd later_steps flat_map sum_abs fold_right].
    split; [intros s' [= <-] | intros]; lia.
  - rewrite trace_cons in *. destruct (step ar c s o) as [cs rr] eqn:E.
    destruct rr as [s1 | e | p].
    2, 3: (* a failed operation has made no step *)
      clear IH; cbn [fst snd];
      assert (L : later_steps [(s, cs)] = [])
        by (unfold later_steps; cbn [flat_map fst snd];
            rewrite (step_not_ok_no_step _ _ _ _ _ _ E) by discriminate;
            destruct (in_startup s); reflexivity);
      rewrite L; change (sum_abs []) with 0; split; [discriminate | intros; lia].
    + specialize (IH s1). destruct (trace ar c s1 r) as [t x]. cbn [fst snd] in *.
      change (later_steps ((s, cs) :: t))
        with ((if in_startup s then [] else steps_of cs) ++ later_steps t) in *.
      set (l := if in_startup s then [] else steps_of cs) in *.
      assert (Hl : (sat_abs ar = true \/ Forall (fun d => d <> i64_min) l) /\
                   (sat_abs ar = true \/ Forall (fun d => d <> i64_min) (later_steps t))).
      { destruct Hs as [Hs | Hs]; [auto | apply Forall_app in Hs; tauto]. }
      destruct (step_acc _ _ _ _ _ _ E Ha (proj1 Hl)) as [A1 A2]. fold l in A1.
      pose proof (sum_abs_nonneg l). pose proof (sum_abs_nonneg (later_steps t)).
      destruct IH as [I1 I2]; [lia | tauto |].
      rewrite sum_abs_app. split.
      * intros s' E'. rewrite (I1 s' E'), A1. lia.
      * intros a Ea La Lacc. specialize (A2 a Ea Lacc). specialize (I2 a Ea La A2). lia.
Qed.

Lemma accumulated_bound : forall ar c ops s a,
  acc s = 0 -> c_acc c = Some a -> 0 <= a < i64_max ->
  (sat_abs ar = true \/ Forall (fun d => d <> i64_min) (later_steps (fst (trace ar c s ops)))) ->
  sum_abs (later_steps (fst (trace ar c s ops))) <= a.
Proof.
  intros ar c ops s a H0 Ea Ha Hs.
  assert (Hok : acc_ok s) by (unfold acc_ok, i64_max; lia).
  destruct (accumulated_invariant ar c ops s Hok Hs) as [_ I2].
  specialize (I2 a Ea (proj2 Ha)). lia.
Qed.

Lemma acc_ok_preserved : forall ar c ops s s',
  acc_ok s ->
  (sat_abs ar = true \/ Forall (fun d => d <> i64_min) (later_steps (fst (trace ar c s ops)))) ->
  snd (trace ar c s ops) = Ok s' -> acc_ok s'.
Proof.
  intros ar c ops s s' Ha Hs E.
  destruct (accumulated_invariant ar c ops s Ha Hs) as [I1 _].
  unfold acc_ok. rewrite (I1 s' E). pose proof (sum_abs_nonneg (later_steps (fst (trace ar c s ops)))).
  unfold acc_ok, i64_max in *. lia.
Qed.

(* The two arithmetics, and the witness of C01_accumulated_refuted: no single-step threshold, an
   accumulated threshold of 1800 s, and after startup the requests -2^31 s, +1000 s, -1000 s.  Under
   the wrapping arithmetic the first step, i64::MIN, makes accumulated_steps negative and lets the
   others pass. *)
Definition wrap_arith : arith := {| sat_abs := false; sat_neg := false |}.
Definition sat_arith : arith := {| sat_abs := true; sat_neg := true |}.
Definition no_thr : thr := {| fwd := None; bwd := None |}.
Definition witness_cfg : cfg :=
  {| c_startup := no_thr; c_single := no_thr; c_acc := Some (1800 * 2 ^ 32);
     c_step_threshold := 0.01%float; c_slew_max := 0.0002%float; c_slew_min_dur := 8%float;
     c_max_freq := 0.000495%float; c_off_thr := 2%float; c_off_left := 1%float;
     c_freq_thr := 0%float; c_freq_left := 0%float |}.
Definition witness_ops : list op :=
  [SteerOffset (-2147483648)%float 0%float; SteerOffset 1000%float 0%float; SteerOffset (-1000)%float 0%float].
Definition running_st : st := set_startup (init_st 0%float) false.

(* under the saturating arithmetic that history stops at its first request *)
Lemma accumulated_witness_saturating :
  fst (run sat_arith witness_cfg running_st witness_ops) = [] /\
  snd (run sat_arith witness_cfg running_st witness_ops) = Panic site_exit_running.
Proof. vm_compute. split; reflexivity. Qed.
