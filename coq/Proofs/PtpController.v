(* Proofs about Model/PtpController.v: the decision of steer_clocks for each clock and the
   absorption of every steering action into the filter. *)
From V Require Import Model.PtpController Proofs.Common Proofs.Estimator Proofs.EstimatorAbsorb.

(* the filter's offset / frequency report for clock id: (value, uncertainty) or an error *)
Definition qo (f : filter) (id : Z) : res (float * float) := f_clock_offset f id.
Definition qf (f : filter) (id : Z) : res (float * float) := f_clock_frequency f id.

Lemma on_est_ok op f f' : on_est op f = Ok f' -> exists e, op (f_est f) = Ok e /\ f' = with_est f e.
Proof. unfold on_est. intros H. inv_bind H. inversion H. eauto. Qed.

(* the reports (o, f) of one clock become (o', f') by exactly the change chg: the changed report is
   bumped by the amount of the change, the other one stays; [effect] reads the four reports off two filters *)
Definition effect_q (chg : change) (o f o' f' : res (float * float)) : Prop :=
  match chg with
  | FreqChange ch => bumped FO ch f f' /\ o' = o
  | OffsetChange ch => bumped FO ch o o' /\ f' = f
  | SystemStep d => bumped FO (duration_as_seconds d) o o' /\ f' = f
  end.
Definition effect (chg : change) (id : Z) (flt flt' : filter) : Prop :=
  effect_q chg (qo flt id) (qf flt id) (qo flt' id) (qf flt' id).

Lemma apply_change_spec id chg flt flt' : WF (f_est flt) -> apply_change id chg flt = Ok flt' ->
  WF (f_est flt') /\ f_links flt' = f_links flt /\
  effect chg id flt flt' /\
  (forall id', id' <> id -> qo flt' id' = qo flt id' /\ qf flt' id' = qf flt id').
Proof.
  intros W H. unfold effect, effect_q, qo, qf, f_clock_offset, f_clock_frequency.
  destruct chg as [ch|ch|d]; cbn [apply_change] in H; apply on_est_ok in H; destruct H as (e & E & ->);
    destruct (absorb_shape FO _ _ _ _ _ _ E) as (c & s & Hc & Hb & ->); cbn [with_est f_est f_links].
  - (* FreqChange *) destruct (absorb_at FO _ id c true ch (e_time (f_est flt)) s W Hc Hb) as (W' & Hq & Ho & _).
    exact (conj W' (conj eq_refl (conj Hq Ho))).
  - (* OffsetChange *) destruct (absorb_at FO _ id c false ch (e_time (f_est flt)) s W Hc Hb) as (W' & Hq & Ho & _).
    exact (conj W' (conj eq_refl (conj Hq Ho))).
  - (* SystemStep *) destruct (absorb_at FO _ id c false (fdt FO d) (ts_add (e_time (f_est flt)) d) s W Hc Hb) as (W' & Hq & Ho & _).
    exact (conj W' (conj eq_refl (conj Hq Ho))).
Qed.

Definition no_answers : clock_answers := {| ca_cur := 0; ca_max := 0 |}.

Lemma steer_loop_cons old index id ids ans acc acc' :
  steer_loop old index (id :: ids) ans acc = Ok acc' ->
  exists dc flt1,
    steer_decision old index id (nth 0 ans no_answers) = Ok dc /\
    apply_change id (snd dc) (fst acc) = Ok flt1 /\
    steer_loop old (S index) ids (tl ans) (flt1, snd acc ++ [fst dc]) = Ok acc'.
Proof.
  cbn [steer_loop]. intros H. apply bind_ok in H. destruct H as (acc1 & H1 & H).
  apply bind_ok in H1. destruct H1 as (dc & Hd & H1). apply bind_ok in H1. destruct H1 as (flt1 & Ha & H1).
  inversion H1; subst acc1. exists dc, flt1. destruct ans; auto.
Qed.

Lemma steer_loop_spec old : forall ids index ans acc acc',
  WF (f_est (fst acc)) -> NoDup ids ->
  steer_loop old index ids ans acc = Ok acc' ->
  WF (f_est (fst acc')) /\
  (forall id, ~ In id ids -> qo (fst acc') id = qo (fst acc) id /\ qf (fst acc') id = qf (fst acc) id) /\
  exists dcs : list (call * change),
    length dcs = length ids /\ snd acc' = snd acc ++ map fst dcs /\
    forall k id, nth_error ids k = Some id ->
      exists dc, nth_error dcs k = Some dc /\
        steer_decision old (index + k) id (nth k ans no_answers) = Ok dc /\
        effect (snd dc) id (fst acc) (fst acc').
Proof.
  induction ids as [|id ids IH]; intros index ans acc acc' W Hn H.
  - inversion H; subst acc'. split; auto. split; auto.
    exists []. cbn. rewrite app_nil_r. split; [reflexivity|]. split; [reflexivity|].
    intros [|k] id' Hk; discriminate.
  - inversion Hn as [|? ? Hnin Hn']; subst.
    destruct (steer_loop_cons _ _ _ _ _ _ _ H) as (dc & flt1 & Hd & Ha & Hrec).
    destruct (apply_change_spec _ _ _ _ W Ha) as (W1 & _ & He & Ho).
    destruct (IH _ _ (flt1, snd acc ++ [fst dc]) _ W1 Hn' Hrec) as (W' & Hrest & dcs & Hlen & Hcalls & Hk).
    cbn [fst snd] in *.
    split; auto. split.
    + intros id' Hnot. assert (Hne : id' <> id) by (intros ->; apply Hnot; now left).
      destruct (Hrest id') as [E1 E2]; [intros Hc; apply Hnot; now right|].
      destruct (Ho id' Hne) as [E3 E4]. split; congruence.
    + exists (dc :: dcs). split; [cbn; congruence|]. split.
      { rewrite Hcalls. cbn [map]. rewrite <- app_assoc. reflexivity. }
      intros [|k] id' Hnth; cbn [nth_error] in Hnth.
      * inversion Hnth; subst id'. exists dc. split; [reflexivity|]. split.
        { rewrite Nat.add_0_r. exact Hd. }
        destruct (Hrest id Hnin) as [E1 E2]. unfold effect in *. rewrite E1, E2. exact He.
      * destruct (Hk k id' Hnth) as (dc' & N1 & N2 & N3). exists dc'. split; [exact N1|]. split.
        { replace (index + S k)%nat with (S index + k)%nat by lia.
          destruct ans; cbn [tl nth] in *; auto. destruct k; exact N2. }
        assert (Hne : id' <> id).
        { intros ->. apply Hnin. eapply nth_error_In; eauto. }
        destruct (Ho id' Hne) as [E3 E4]. unfold effect in *. rewrite <- E3, <- E4. exact N3.
Qed.

Theorem steer_clocks_spec now ans (c c' : ctl) calls :
  WF (f_est (c_filter c)) -> NoDup (c_clocks c) ->
  steer_clocks now ans c = Ok (c', calls) ->
  exists flt (dcs : list (call * change)),
    f_progress_time now (c_filter c) = Ok flt /\
    c_clocks c' = c_clocks c /\ WF (f_est (c_filter c')) /\
    calls = map fst dcs /\ length dcs = length (c_clocks c) /\
    (forall id, ~ In id (c_clocks c) ->
       qo (c_filter c') id = qo flt id /\ qf (c_filter c') id = qf flt id) /\
    forall k id, nth_error (c_clocks c) k = Some id ->
      exists dc, nth_error dcs k = Some dc /\
        steer_decision (c_filter c) k id (nth k ans no_answers) = Ok dc /\
        effect (snd dc) id flt (c_filter c').
Proof.
  intros W Hn H. unfold steer_clocks in H.
  apply bind_ok in H. destruct H as (flt & Hp & H). apply bind_ok in H. destruct H as (r & Hl & H).
  inversion H; subst c' calls.
  assert (Wf : WF (f_est flt)).
  { destruct (on_est_ok _ _ _ Hp) as (e & E & ->). exact (WF_progress_time FO _ _ _ W E). }
  destruct (steer_loop_spec _ _ _ _ (flt, []) _ Wf Hn Hl) as (W' & Hrest & dcs & Hlen & Hcalls & Hk).
  exists flt, dcs. cbn [fst snd with_filter c_clocks c_filter app] in *. auto 8.
Qed.

Definition wanted_steer (a : clock_answers) (frequency offset : float) : float :=
  (ca_cur a - frequency - offset / 8)%float.

Lemma steer_decision_cases old index id a dc : steer_decision old index id a = Ok dc ->
  exists offset ou, qo old id = Ok (offset, ou) /\
  ((exists freq fu actual, qf old id = Ok (freq, fu) /\
      f64_clamp (wanted_steer a freq offset) (- ca_max a)%float (ca_max a) = Ok actual /\
      dc = (SetFrequency id actual, FreqChange (actual - ca_cur a)%float)) \/
   (let step := duration_from_f64_seconds (- offset)%float in
    dc = (StepClock id step, if (index =? 0)%nat then SystemStep step else OffsetChange (- offset)%float))).
Proof.
  unfold steer_decision, qo, qf. intros H. apply bind_ok in H. destruct H as ([offset ou] & Ho & H).
  exists offset, ou. split; auto. cbn [fst snd] in H.
  destruct ((offset <? 10)%float && (5 * ou <? offset)%float).
  - left. apply bind_ok in H. destruct H as ([freq fu] & Hf & H). apply bind_ok in H.
    destruct H as (actual & Hc & H). inversion H. exists freq, fu, actual. auto.
  - right. inversion H. reflexivity.
Qed.
