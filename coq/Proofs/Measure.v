(* The NTP on-wire formulas of Model/Measure.v (C05).  One exchange fed to the two-way wrapper
   yields exactly one measurement ([twoway_exchange_step]); its offset and delay are the saturated
   true combinations of the four instants ([wire_offset_era], [wire_delay_era]). *)
From V Require Import Model.Measure Proofs.TimeTypes.
Local Open Scope Z_scope.

(* the values the wrapper computes from the four on-wire timestamps *)
Definition wire_delay (T1 T2 T3 T4 : Z) : Z := dsub (tsub T4 T1) (tsub T3 T2).
Definition wire_offset (T1 T2 T3 T4 : Z) : Z := ddiv2 (dadd (tsub T2 T1) (tsub T3 T4)).

Lemma dadd_tsub_in_i64 : forall a b c d, in_i64 (dadd (tsub a b) (tsub c d)).
Proof. intros. apply dadd_range. Qed.

Lemma twoway_incoming_without_outgoing : forall m,
  m_sender_id m <> clock_system -> twoway_handle None m = Ok (None, None).
Proof.
  intros m H. unfold twoway_handle. destruct (Z.eqb_spec (m_sender_id m) clock_system); [contradiction|reflexivity].
Qed.

Lemma twoway_outgoing : forall s m,
  m_sender_id m = clock_system -> twoway_handle s m = Ok (Some m, None).
Proof. intros s m H. unfold twoway_handle. rewrite H, Z.eqb_refl. reflexivity. Qed.

(* one exchange, from any prior wrapper state: exactly one measurement is
   delivered, computed from this exchange's four timestamps only, and the
   stored outgoing measurement is consumed *)
Lemma twoway_exchange_step : forall s id T1 T2 T3 T4 rest,
  id <> clock_system ->
  twoway_run s (exchange_meas id T1 T2 T3 T4 ++ rest) =
  do outs <- twoway_run None rest;
  Ok (mkIMeas (Some (wire_delay T1 T2 T3 T4)) (wire_offset T1 T2 T3 T4) T4 :: outs).
Proof.
  intros s id T1 T2 T3 T4 rest Hid.
  unfold exchange_meas, measurements_from_packet.
  cbn [app twoway_run]. rewrite twoway_outgoing by reflexivity. cbn [res_bind].
  unfold twoway_handle. cbn [m_sender_id m_sender_ts m_receiver_ts].
  destruct (Z.eqb_spec id clock_system) as [E|_]; [contradiction|].
  rewrite ddiv_2 by apply dadd_range. cbn [res_bind].
  unfold wire_delay, wire_offset.
  destruct (twoway_run None rest); reflexivity.
Qed.

Lemma twoway_exchange : forall s id T1 T2 T3 T4,
  id <> clock_system ->
  twoway_run s (exchange_meas id T1 T2 T3 T4) =
  Ok [mkIMeas (Some (wire_delay T1 T2 T3 T4)) (wire_offset T1 T2 T3 T4) T4].
Proof.
  intros. rewrite <- (app_nil_r (exchange_meas id T1 T2 T3 T4)).
  rewrite twoway_exchange_step by assumption. reflexivity.
Qed.

Record exchange : Type := mkEx { ex_t1 : Z; ex_t2 : Z; ex_t3 : Z; ex_t4 : Z }.

Definition exchange_result (e : exchange) : imeas :=
  mkIMeas (Some (wire_delay (ex_t1 e) (ex_t2 e) (ex_t3 e) (ex_t4 e)))
          (wire_offset (ex_t1 e) (ex_t2 e) (ex_t3 e) (ex_t4 e)) (ex_t4 e).

Lemma twoway_handle_no_panic : forall s m, exists r, twoway_handle s m = Ok r.
Proof.
  intros s m. unfold twoway_handle.
  destruct (m_sender_id m =? clock_system); [eauto|].
  destruct s as [lo|]; [|eauto].
  rewrite ddiv_2 by apply dadd_range. cbn [res_bind]. eauto.
Qed.

(* the on-wire formulas, for true (unbounded) instants t1..t4 observed
   modulo 2^64                                                          *)

Notation T x := (x mod 2 ^ 64) (only parsing).

(* with representable single differences the two combinations are the saturated true ones *)
Lemma wire_offset_era : forall t1 t2 t3 t4, in_i64 (t2 - t1) -> in_i64 (t3 - t4) ->
  wire_offset (T t1) (T t2) (T t3) (T t4) = Z.quot (sat_i64 ((t2 - t1) + (t3 - t4))) 2.
Proof. intros. unfold wire_offset. rewrite !tsub_era by assumption. reflexivity. Qed.

Lemma wire_delay_era : forall t1 t2 t3 t4, in_i64 (t4 - t1) -> in_i64 (t3 - t2) ->
  wire_delay (T t1) (T t2) (T t3) (T t4) = sat_i64 ((t4 - t1) - (t3 - t2)).
Proof. intros. unfold wire_delay. rewrite !tsub_era by assumption. reflexivity. Qed.

Lemma wire_offset_exact : forall t1 t2 t3 t4,
  in_i64 (t2 - t1) -> in_i64 (t3 - t4) -> in_i64 ((t2 - t1) + (t3 - t4)) ->
  wire_offset (T t1) (T t2) (T t3) (T t4) = Z.quot ((t2 - t1) + (t3 - t4)) 2.
Proof.
  intros t1 t2 t3 t4 H21 H34 Hs. rewrite wire_offset_era by assumption.
  rewrite (proj1 (sat_i64_saturates _)) by assumption. reflexivity.
Qed.

Lemma wire_delay_exact : forall t1 t2 t3 t4,
  in_i64 (t4 - t1) -> in_i64 (t3 - t2) -> in_i64 ((t4 - t1) - (t3 - t2)) ->
  wire_delay (T t1) (T t2) (T t3) (T t4) = (t4 - t1) - (t3 - t2).
Proof.
  intros t1 t2 t3 t4 H41 H32 Hs. rewrite wire_delay_era by assumption.
  apply sat_i64_saturates. assumption.
Qed.

Lemma oneway_offset_shortest : forall S R id,
  im_offset (oneway_handle (mkMeas id S R)) = tsub S R.
Proof. reflexivity. Qed.
