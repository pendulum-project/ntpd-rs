(* CsptpMessage::deserialize: totality and what it accepts; shared by C44 and C45. *)
From V Require Import Model.CsptpMsg Proofs.Common Proofs.TlvSet Proofs.PtpWireMsg.

(* CsptpMessage::deserialize accepts a parsed message with a valid set, the CSPTP sdoId and version,
   and either a follow-up body or a Sync body with exactly one request or response TLV, well formed *)
Lemma csptp_deserialize_inv : forall buf m,
  csptp_deserialize buf = Ok m ->
  msg_deserialize buf = Ok m /\ tlv_valid (m_suffix m)
  /\ h_sdo (m_header m) = Gen.ConstCsptp.CSPTP_SDO_ID_CHECK /\ h_vmajor (m_header m) = Gen.ConstCsptp.CSPTP_VERSION_CHECK
  /\ match m_body m with
     | Sync _ =>
         exists ts, tlvs (m_suffix m) = Ok ts
           /\ Nat.add (count_if (fun t : tlv => Z.eqb (fst t) Gen.ConstCsptp.TLV_CSPTP_REQUEST) ts)
                      (count_if (fun t : tlv => Z.eqb (fst t) Gen.ConstCsptp.TLV_CSPTP_RESPONSE) ts) = 1%nat
           /\ count_if (fun t : tlv => Z.eqb (fst t) Gen.ConstCsptp.TLV_CSPTP_REQUEST) ts = count_if (fun t => is_some (req_tlv_try t)) ts
           /\ count_if (fun t : tlv => Z.eqb (fst t) Gen.ConstCsptp.TLV_CSPTP_RESPONSE) ts = count_if (fun t => is_some (resp_tlv_try t)) ts
     | FollowUp _ => True
     | _ => False
     end.
Proof.
  intros buf m H. unfold csptp_deserialize in H.
  apply bind_ok in H. destruct H as (m0 & E & H). pose proof (msg_deserialize_valid _ _ E) as V.
  destr_if H; [discriminate|]. rename Heqb into Ehdr. apply orb_false_iff in Ehdr. destruct Ehdr as [E1 E2].
  apply negb_false_iff, Z.eqb_eq in E1, E2.
  destruct (m_body m0) eqn:Eb; try discriminate.
  - (* Sync *) apply bind_ok in H. destruct H as (ts & Hts & H). cbv zeta in H. destr_if H; [discriminate|]. rename Heqb into Ecnt.
    apply Ok_inj in H. subst m0. rewrite Eb. repeat split; auto. exists ts. split; [exact Hts|].
    apply orb_false_iff in Ecnt. destruct Ecnt as [A C]. apply orb_false_iff in A. destruct A as [A B].
    apply negb_false_iff, Nat.eqb_eq in A, B, C. auto.
  - (* FollowUp *) apply Ok_inj in H. subst m0. rewrite Eb. auto.
Qed.

Lemma csptp_deserialize_np : forall buf, np (csptp_deserialize buf).
Proof.
  intros buf. apply np_bind; [apply msg_deserialize_np|]. intros m E.
  destruct (_ || _); [apply np_err|]. destruct (m_body m); try apply np_err; [|apply np_ok].
  apply np_bind; [apply tlvs_np; exact (msg_deserialize_valid _ _ E)|].
  intros ts _. cbv zeta. destruct (_ || _); [apply np_err|apply np_ok].
Qed.
