(* Lemmas about Model/TimeTypes.v: wrapping timestamps, saturating durations,
   poll intervals, wire formats, PTP 128-bit types. *)
From V Require Import Model.TimeTypes Proofs.Common.

Local Open Scope Z_scope.

Lemma lor_shift32 : forall z t, 0 <= t < 2 ^ 32 -> Z.lor (z * 2 ^ 32) t = z * 2 ^ 32 + t.
Proof.
  intros z t Ht.
  assert (Hl : Z.land (z * 2 ^ 32) t = 0).
  { apply Z.bits_inj'. intros n Hn. rewrite Z.land_spec, Z.bits_0.
    destruct (Z.lt_ge_cases n 32).
    - rewrite Z.mul_pow2_bits_low by lia. reflexivity.
    - destruct (Z.eq_dec t 0) as [->|Ht0]; [rewrite Z.bits_0; apply andb_false_r|].
      rewrite (Z.bits_above_log2 t n); [apply andb_false_r|lia|].
      assert (Z.log2 t < 32) by (apply Z.log2_lt_pow2; lia). lia. }
  rewrite <- Z.lxor_lor by exact Hl. symmetry. apply Z.add_nocarry_lxor. exact Hl.
Qed.

Lemma wrap_spec : forall bits z, 0 < bits ->
  exists k, wrap bits z = z + k * 2 ^ bits /\ 0 <= wrap bits z < 2 ^ bits.
Proof.
  intros bits z Hb. unfold wrap.
  assert (Hp : 0 < 2 ^ bits) by (apply Z.pow_pos_nonneg; lia).
  exists (- (z / 2 ^ bits)). split.
  - pose proof (Z.div_mod z (2 ^ bits)). lia.
  - apply Z.mod_pos_bound; lia.
Qed.

Lemma to_signed_spec : forall bits z, 0 < bits ->
  exists k, to_signed bits z = z + k * 2 ^ bits /\
            - 2 ^ (bits - 1) <= to_signed bits z < 2 ^ (bits - 1).
Proof.
  intros bits z Hb. destruct (wrap_spec bits z Hb) as [k [Hk Hr]]. unfold to_signed, wrap in *.
  rewrite (pow2_double bits Hb) in *. cbv zeta.
  destruct (z mod (2 * 2 ^ (bits - 1)) <? 2 ^ (bits - 1)) eqn:E.
  - exists k. lia.
  - exists (k - 1). lia.
Qed.

(* 2^64, 2^63, 2^128, 2^127 *)
Definition M64 : Z := 18446744073709551616.
Definition H64 : Z := 9223372036854775808.
Definition M128 : Z := 340282366920938463463374607431768211456.
Definition H128 : Z := 170141183460469231731687303715884105728.

(* with sdiff a b := to_signed (wrap (a - b)), modulo 2^bits:
   b + sdiff a b = a,  a - sdiff a b = b,  sdiff (t + d) t = d,  (t + d) - d = t *)
Section Wrapping.
Variable bits : Z.
Hypothesis Hb : 0 < bits.
Let Mnz : 2 ^ bits <> 0.
Proof. apply Z.pow_nonzero; lia. Qed.

(* reading a wrapped value as signed does not change it modulo 2^bits *)
Lemma wrap_signed : forall u, wrap bits (to_signed bits (wrap bits u)) = wrap bits u.
Proof. intros u. apply wrap_to_signed. apply Z.mod_pos_bound. lia. Qed.

Lemma wrap_add_signed_diff : forall a b, 0 <= a < 2 ^ bits ->
  wrap bits (b + wrap bits (to_signed bits (wrap bits (a - b)))) = a.
Proof.
  intros a b Ha. rewrite wrap_signed. unfold wrap. rewrite Z.add_mod_idemp_r by exact Mnz.
  replace (b + (a - b)) with a by ring. apply Z.mod_small. exact Ha.
Qed.

Lemma wrap_sub_signed_diff : forall a b, 0 <= b < 2 ^ bits ->
  wrap bits (a - wrap bits (to_signed bits (wrap bits (a - b)))) = b.
Proof.
  intros a b Hb'. rewrite wrap_signed. unfold wrap. rewrite Zminus_mod_idemp_r.
  replace (a - (a - b)) with b by ring. apply Z.mod_small. exact Hb'.
Qed.

Lemma signed_diff_wrap_add : forall t d, - 2 ^ (bits - 1) <= d < 2 ^ (bits - 1) ->
  to_signed bits (wrap bits (wrap bits (t + wrap bits d) - t)) = d.
Proof.
  intros t d Hd. unfold wrap. rewrite Zminus_mod_idemp_l.
  replace (t + d mod 2 ^ bits - t) with (d mod 2 ^ bits) by ring. rewrite Z.mod_mod by exact Mnz.
  apply to_signed_wrap; assumption.
Qed.

Lemma wrap_sub_wrap_add : forall t d, 0 <= t < 2 ^ bits ->
  wrap bits (wrap bits (t + wrap bits d) - wrap bits d) = t.
Proof.
  intros t d Ht. unfold wrap. rewrite Zminus_mod_idemp_l.
  replace (t + d mod 2 ^ bits - d mod 2 ^ bits) with t by ring. apply Z.mod_small. exact Ht.
Qed.
End Wrapping.

(* the powers of two of the time types as literals, so that lia sees constants *)
Ltac pows :=
  change (2 ^ 64) with 18446744073709551616 in *;
  change (2 ^ 63) with 9223372036854775808 in *;
  change (2 ^ 128) with 340282366920938463463374607431768211456 in *;
  change (2 ^ 127) with 170141183460469231731687303715884105728 in *;
  change (2 ^ 32) with 4294967296 in *;
  change (2 ^ 48) with 281474976710656 in *;
  change (2 ^ 16) with 65536 in *;
  change (2 ^ 4) with 16 in *.

(* the range predicates and saturating wrappers as inequalities and Z.max / Z.min *)
Ltac unfold_ranges :=
  unfold in_u64, in_i64, in_u32, in_i8, in_u128, in_i128, sat_i64, sat_i8, sat_i128,
         clampZ, i64_min, i64_max, i8_min, i8_max, i128_min, i128_max, u64_max in *.

Lemma to_signed64_id : forall v, in_i64 v -> to_signed 64 v = v.
Proof. exact (fun v => to_signed_small 64 v eq_refl). Qed.


(* the signed reading d of a wrapped difference is in the signed range, congruent to a - b, of
   least magnitude among the representatives of a - b, and the only representative in range:
   every other representative d + j * 2^bits, j <> 0, lies outside the range ([far]) *)
Lemma signed_diff_spec : forall bits a b, 0 < bits ->
  let d := to_signed bits (wrap bits (a - b)) in
  - 2 ^ (bits - 1) <= d < 2 ^ (bits - 1) /\
  (exists k, d = (a - b) + k * 2 ^ bits) /\
  (forall k, Z.abs d <= Z.abs ((a - b) + k * 2 ^ bits)) /\
  (forall d', - 2 ^ (bits - 1) <= d' < 2 ^ (bits - 1) ->
     (exists k, d' = (a - b) + k * 2 ^ bits) -> d' = d).
Proof.
  intros bits a b Hb d.
  destruct (to_signed_spec bits (wrap bits (a - b)) Hb) as [k1 [E1 R]].
  destruct (wrap_spec bits (a - b) Hb) as [k2 [E2 _]]. fold d in E1, R.
  rewrite (pow2_double bits Hb) in *. set (H := 2 ^ (bits - 1)) in *.
  assert (E : d = (a - b) + (k1 + k2) * (2 * H)) by lia. clearbody d. clear E1 E2.
  split; [exact R|]. split; [exists (k1 + k2); exact E|].
  assert (far : forall j, j <> 0 -> H <= d + j * (2 * H) \/ d + j * (2 * H) < - H).
  { intros j Hj. assert (j <= -1 \/ 1 <= j) as [Hn|Hp] by lia.
    - right. assert (j * (2 * H) <= -1 * (2 * H)) by (apply Z.mul_le_mono_nonneg_r; lia). lia.
    - left. assert (1 * (2 * H) <= j * (2 * H)) by (apply Z.mul_le_mono_nonneg_r; lia). lia. }
  split.
  - intros k. replace (a - b + k * (2 * H)) with (d + (k - (k1 + k2)) * (2 * H)) by lia.
    destruct (Z.eq_dec (k - (k1 + k2)) 0) as [->|N]; [lia|]. specialize (far _ N). lia.
  - intros d' R' [k E']. replace d' with (d + (k - (k1 + k2)) * (2 * H)) in * by lia.
    destruct (Z.eq_dec (k - (k1 + k2)) 0) as [->|N]; [lia|]. specialize (far _ N). lia.
Qed.


(* era safety: true instants ta tb (unbounded), observed modulo 2^64 *)
Lemma tsub_era : forall ta tb,
  in_i64 (ta - tb) -> tsub (ta mod 2 ^ 64) (tb mod 2 ^ 64) = ta - tb.
Proof.
  intros ta tb H. unfold tsub, wrap. rewrite <- Zminus_mod. apply to_signed_wrap; [lia|exact H].
Qed.

Lemma tadd_era : forall t d, tadd (t mod 2 ^ 64) d = (t + d) mod 2 ^ 64.
Proof.
  intros. unfold tadd, wrap. rewrite Z.add_mod_idemp_l, Z.add_mod_idemp_r by lia. reflexivity.
Qed.

Lemma tsub_antisym : forall a b, tsub a b <> - 2 ^ 63 -> tsub b a = - tsub a b.
Proof.
  (* - tsub a b is in range and congruent to b - a *)
  intros a b Hn. destruct (signed_diff_spec 64 a b eq_refl) as (R & [k E] & _).
  change (to_signed 64 (wrap 64 (a - b))) with (tsub a b) in *.
  change (2 ^ (64 - 1)) with (2 ^ 63) in R. symmetry.
  apply (signed_diff_spec 64 b a eq_refl); [change (2 ^ (64 - 1)) with (2 ^ 63); lia|exists (- k); lia].
Qed.

Lemma tbefore_spec : forall ta tb,
  in_i64 (ta - tb) -> tbefore (ta mod 2 ^ 64) (tb mod 2 ^ 64) = (ta <? tb).
Proof. intros. unfold tbefore. rewrite tsub_era by assumption. lia. Qed.


(* the three-way description of a saturating result; [exact] is the
   mathematical result of the operation *)
Definition saturates_i64 (exact result : Z) : Prop :=
  (in_i64 exact -> result = exact) /\
  (exact >= 2 ^ 63 -> result = 2 ^ 63 - 1) /\
  (exact < - 2 ^ 63 -> result = - 2 ^ 63).

Lemma sat_i64_saturates : forall z, saturates_i64 z (sat_i64 z).
Proof. intro z. unfold saturates_i64. unfold_ranges. pows. lia. Qed.

Lemma sat_i64_range : forall z, in_i64 (sat_i64 z).
Proof. intro. unfold_ranges. pows. lia. Qed.

Lemma dmul_saturates : forall a k, saturates_i64 (a * k) (dmul a k).
Proof. intros. apply sat_i64_saturates. Qed.
Lemma dneg_saturates : forall a, saturates_i64 (- a) (dneg a).
Proof. intros. apply sat_i64_saturates. Qed.
Lemma dabs_saturates : forall a, saturates_i64 (Z.abs a) (dabs a).
Proof. intros. apply sat_i64_saturates. Qed.

Lemma dadd_range : forall a b, in_i64 (dadd a b).
Proof. intros. apply sat_i64_range. Qed.
Lemma dsub_range : forall a b, in_i64 (dsub a b).
Proof. intros. apply sat_i64_range. Qed.
Lemma dmul_range : forall a k, in_i64 (dmul a k).
Proof. intros. apply sat_i64_range. Qed.
Lemma dneg_range : forall a, in_i64 (dneg a).
Proof. intros. apply sat_i64_range. Qed.
Lemma dabs_range : forall a, in_i64 (dabs a).
Proof. intros. apply sat_i64_range. Qed.

(* never wrapping: the sign of the result is never opposite to the sign of the
   exact value, and the result never moves away from zero *)
Definition no_wrap (exact result : Z) : Prop :=
  (0 <= exact -> 0 <= result <= exact) /\ (exact <= 0 -> exact <= result <= 0).

Lemma sat_i64_no_wrap : forall z, no_wrap z (sat_i64 z).
Proof. intro. unfold no_wrap. unfold_ranges. pows. lia. Qed.

Lemma sat_i64_monotone : forall x y, x <= y -> sat_i64 x <= sat_i64 y.
Proof. intros. unfold_ranges. lia. Qed.

Lemma dneg_involutive_but_min : forall a, in_i64 a -> a <> - 2 ^ 63 -> dneg (dneg a) = a.
Proof. intros a Ha Hn. unfold dneg. unfold_ranges. pows. lia. Qed.

Lemma dneg_min : dneg (- 2 ^ 63) = 2 ^ 63 - 1.
Proof. reflexivity. Qed.

Lemma dabs_nonneg : forall a, 0 <= dabs a.
Proof. intros. unfold dabs. unfold_ranges. pows. lia. Qed.

Lemma dabs_exact : forall a, in_i64 a -> a <> - 2 ^ 63 -> dabs a = Z.abs a.
Proof. intros a Ha Hn. unfold dabs. unfold_ranges. pows. lia. Qed.

Lemma dabs_min : dabs (- 2 ^ 63) = 2 ^ 63 - 1.
Proof. reflexivity. Qed.

Lemma dabs_ge : forall a, in_i64 a -> a <= dabs a /\ - a - 1 <= dabs a.
Proof. intros a Ha. unfold dabs. unfold_ranges. pows. lia. Qed.

(* the operations of the code without branch fix-c32 (Model.TimeTypes: dneg_wrap, dabs_wrap)
   wrap exactly at MIN *)
Lemma dneg_wrap_min : dneg_wrap (- 2 ^ 63) = - 2 ^ 63.
Proof. reflexivity. Qed.
Lemma dabs_wrap_min : dabs_wrap (- 2 ^ 63) = - 2 ^ 63.
Proof. reflexivity. Qed.
(* on the i64 range reinterpreting and saturating are both the identity *)
Lemma to_signed64_sat : forall v, in_i64 v -> to_signed 64 v = sat_i64 v.
Proof.
  intros v Hv. rewrite to_signed64_id by exact Hv. symmetry. apply sat_i64_saturates. exact Hv.
Qed.
Lemma dneg_wrap_agrees : forall a, in_i64 a -> a <> - 2 ^ 63 -> dneg_wrap a = dneg a.
Proof. intros a Ha Hn. apply to_signed64_sat. unfold in_i64 in *. lia. Qed.
Lemma dabs_wrap_agrees : forall a, in_i64 a -> a <> - 2 ^ 63 -> dabs_wrap a = dabs a.
Proof. intros a Ha Hn. apply to_signed64_sat. unfold in_i64 in *. lia. Qed.

(* |a / k| = |a| / |k| is at most |a|, and at most 2^62 for a = MIN unless k = +-1 *)
Lemma quot_in_i64 : forall a k, in_i64 a -> k <> 0 -> ~ (a = - 2 ^ 63 /\ k = -1) ->
  in_i64 (Z.quot a k).
Proof.
  intros a k Ha Hk Hn. unfold in_i64 in *. pows.
  destruct (Z.eq_dec k 1) as [->|K1]; [rewrite Z.quot_1_r; exact Ha|].
  assert (Z.abs (a ÷ k) < 9223372036854775808); [|lia].
  rewrite <- Z.quot_abs by exact Hk.
  destruct (Z.eq_dec a (-9223372036854775808)) as [->|Ea].
  - apply Z.le_lt_trans with 4611686018427387904; [apply Z.quot_le_upper_bound; lia|lia].
  - apply Z.le_lt_trans with (Z.abs a); [|lia]. apply Z.quot_le_upper_bound; [lia|].
    rewrite <- (Z.mul_1_l (Z.abs a)) at 1. apply Z.mul_le_mono_nonneg_r; lia.
Qed.

Lemma ddiv_saturates : forall a k, k <> 0 ->
  exists r, ddiv a k = Ok r /\ saturates_i64 (Z.quot a k) r.
Proof.
  intros a k Hk. unfold ddiv. destruct (Z.eqb_spec k 0); [lia|].
  eexists; split; [reflexivity|]. apply sat_i64_saturates.
Qed.

Lemma ddiv_no_panic : forall a k, k <> 0 -> exists r, ddiv a k = Ok r.
Proof. intros a k Hk. destruct (ddiv_saturates a k Hk) as [r [E _]]. eauto. Qed.

Lemma ddiv_exact : forall a k, in_i64 a -> k <> 0 -> ~ (a = - 2 ^ 63 /\ k = -1) ->
  ddiv a k = Ok (Z.quot a k).
Proof.
  intros a k Ha Hk Hn. unfold ddiv. destruct (Z.eqb_spec k 0); [lia|].
  f_equal. pose proof (quot_in_i64 a k Ha Hk Hn). unfold_ranges. pows. lia.
Qed.

Lemma ddiv_min_neg1 : ddiv (- 2 ^ 63) (-1) = Ok (2 ^ 63 - 1).
Proof. reflexivity. Qed.

Lemma ddiv_panic_iff : forall a k, (exists s, ddiv a k = Panic s) <-> k = 0.
Proof.
  intros. unfold ddiv. destruct (Z.eqb_spec k 0); split; intros; eauto; try lia.
  destruct H as [s H]. discriminate.
Qed.

Lemma ddiv_2 : forall a, in_i64 a -> ddiv a 2 = Ok (ddiv2 a).
Proof. intros a Ha. unfold ddiv2. apply ddiv_exact; [exact Ha|lia|lia]. Qed.

Lemma ddiv_unrepaired_agrees : forall a k, in_i64 a -> k <> 0 ->
  ~ (a = - 2 ^ 63 /\ k = -1) -> ddiv_unrepaired a k = ddiv a k.
Proof.
  intros a k Ha Hk Hn. rewrite ddiv_exact by assumption. unfold ddiv_unrepaired.
  destruct (Z.eqb_spec k 0); [lia|].
  destruct (Z.eqb_spec a i64_min); destruct (Z.eqb_spec k (-1)); cbn [andb]; try reflexivity.
  exfalso. apply Hn. split; [|assumption]. subst a. reflexivity.
Qed.


(* on non-negative durations both encoders are a right shift capped at u32::MAX *)
Lemma to_short_eq : forall d, 0 <= d -> d_to_short d = Ok (Z.min (d / 2 ^ 16) (2 ^ 32 - 1)).
Proof.
  intros d Hd. unfold d_to_short. destruct (Z.ltb_spec d 0); [lia|]. pows.
  destruct (Z.gtb_spec d (281474976710656 - 1)); f_equal.
  - Z.div_mod_to_equations. lia.
  - rewrite Z.mod_small by lia. Z.div_mod_to_equations. lia.
Qed.

Lemma to_time32_eq : forall d, 0 <= d -> d_to_time32 d = Ok (Z.min (d / 2 ^ 4) (2 ^ 32 - 1)).
Proof.
  intros d Hd. unfold d_to_time32. destruct (Z.ltb_spec d 0); [lia|]. cbv zeta.
  destruct (Z.ltb_spec (d / 2 ^ 4) (2 ^ 32)); f_equal; lia.
Qed.

Lemma short_panic_iff : forall d, (exists s, d_to_short d = Panic s) <-> d < 0.
Proof.
  intros. unfold d_to_short. destruct (Z.ltb_spec d 0).
  - split; eauto.
  - split; [|lia]. intros [s H']. destruct (d >? 2 ^ 48 - 1); discriminate.
Qed.

Lemma time32_panic_iff : forall d, (exists s, d_to_time32 d = Panic s) <-> d < 0.
Proof.
  intros. unfold d_to_time32. destruct (Z.ltb_spec d 0).
  - split; eauto.
  - split; [|lia]. intros [s H']. cbv zeta in H'.
    destruct (d / 2 ^ 4 <? 2 ^ 32); discriminate.
Qed.


Lemma poll_inc_spec : forall p lmax, in_i8 p -> in_i8 lmax ->
  in_i8 (poll_inc p lmax) /\ poll_inc p lmax <= lmax /\
  (p < lmax -> poll_inc p lmax = p + 1) /\ (lmax <= p -> poll_inc p lmax = lmax).
Proof. intros. unfold poll_inc. unfold_ranges. lia. Qed.

Lemma poll_dec_spec : forall p lmin, in_i8 p -> in_i8 lmin ->
  in_i8 (poll_dec p lmin) /\ lmin <= poll_dec p lmin /\
  (lmin < p -> poll_dec p lmin = p - 1) /\ (p <= lmin -> poll_dec p lmin = lmin).
Proof. intros. unfold poll_dec. unfold_ranges. lia. Qed.

Lemma poll_force_inc_spec : forall p, in_i8 p ->
  in_i8 (poll_force_inc p) /\ p <= poll_force_inc p /\
  (p < 127 -> poll_force_inc p = p + 1) /\ (p = 127 -> poll_force_inc p = 127).
Proof. intros. unfold poll_force_inc. unfold_ranges. lia. Qed.

(* inc / dec of the code without branch fix-c32 (poll_inc_wrap, poll_dec_wrap) wrap at the ends
   of i8: from 127 (poll_never) to -128 and back *)
Lemma poll_inc_wrap_never : forall lmax, in_i8 lmax -> poll_inc_wrap 127 lmax = -128.
Proof. intros. unfold poll_inc_wrap. change (to_signed 8 (127 + 1)) with (-128). unfold in_i8 in *. lia. Qed.

Lemma poll_dec_wrap_min : forall lmin, in_i8 lmin -> poll_dec_wrap (-128) lmin = 127.
Proof. intros. unfold poll_dec_wrap. change (to_signed 8 (-128 - 1)) with 127. unfold in_i8 in *. lia. Qed.

Lemma poll_as_duration_range : forall p, in_i8 p ->
  1 <= poll_as_duration p <= 2 ^ 62 /\
  (-32 <= p <= 30 -> poll_as_duration p = 2 ^ (p + 32)).
Proof.
  (* the exponent is clamped to [0, 62], and is p + 32 when that lies in there *)
  intros p Hp. unfold poll_as_duration. cbv zeta.
  set (e := if sat_i8 (p + 32) <? 0 then _ else _).
  assert (He : 0 <= e <= 62 /\ (-32 <= p <= 30 -> e = p + 32)).
  { unfold e. destruct (Z.ltb_spec (sat_i8 (p + 32)) 0); [|destruct (Z.gtb_spec (sat_i8 (p + 32)) 62)];
      unfold_ranges; lia. }
  destruct He as [He Heq]. split.
  - change 1 with (2 ^ 0). split; apply Z.pow_le_mono_r; lia.
  - intros H. rewrite (Heq H). reflexivity.
Qed.

Definition saturates_i128 (exact result : Z) : Prop :=
  (in_i128 exact -> result = exact) /\
  (exact >= 2 ^ 127 -> result = 2 ^ 127 - 1) /\
  (exact < - 2 ^ 127 -> result = - 2 ^ 127).

Lemma sat_i128_saturates : forall z, saturates_i128 z (sat_i128 z).
Proof. intro z. unfold saturates_i128. unfold_ranges. pows. lia. Qed.
Lemma sat_i128_range : forall z, in_i128 (sat_i128 z).
Proof. intro. unfold_ranges. pows. lia. Qed.
Lemma sat_i128_no_wrap : forall z, no_wrap z (sat_i128 z).
Proof. intro. unfold no_wrap. unfold_ranges. pows. lia. Qed.

Lemma ptsub_unique : forall a b d,
  in_i128 d -> (exists k, d = (a - b) + k * 2 ^ 128) -> d = ptsub a b.
Proof. intros a b. exact (proj2 (proj2 (proj2 (signed_diff_spec 128 a b eq_refl)))). Qed.

Lemma ptadd_range : forall t d, in_u128 (ptadd t d).
Proof. intros. apply Z.mod_pos_bound. lia. Qed.
Lemma ptsubd_range : forall t d, in_u128 (ptsubd t d).
Proof. intros. apply Z.mod_pos_bound. lia. Qed.

Lemma pdadd_saturates : forall a b, saturates_i128 (a + b) (pdadd a b).
Proof. intros. apply sat_i128_saturates. Qed.
Lemma pdsub_saturates : forall a b, saturates_i128 (a - b) (pdsub a b).
Proof. intros. apply sat_i128_saturates. Qed.
Lemma pdmul_saturates : forall a k, saturates_i128 (a * k) (pdmul a k).
Proof. intros. apply sat_i128_saturates. Qed.
Lemma pddiv_saturates : forall a k, k <> 0 ->
  exists r, pddiv a k = Ok r /\ saturates_i128 (Z.quot a k) r.
Proof.
  intros a k Hk. unfold pddiv. destruct (Z.eqb_spec k 0); [lia|].
  eexists; split; [reflexivity|]. apply sat_i128_saturates.
Qed.
Lemma pddiv_panic_iff : forall a k, (exists s, pddiv a k = Panic s) <-> k = 0.
Proof.
  intros. unfold pddiv. destruct (Z.eqb_spec k 0); split; intros; eauto; try lia.
  destruct H as [s H]. discriminate.
Qed.
Lemma pddiv_min_neg1 : pddiv (- 2 ^ 127) (-1) = Ok (2 ^ 127 - 1).
Proof. reflexivity. Qed.
