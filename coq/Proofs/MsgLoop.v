(* The controller message loop (Model/MsgLoop.v).  The source map after a schedule is a fold of
   [map_step] over the schedule's messages, whatever the world and the timer do; so what the
   controller holds for one source, who is a candidate and which snapshots get stored are
   functions of that source's own events.  When the clock is called is read off [handle_cases],
   the inversion of one handled message, and the loop's invariant about its timer. *)
From V Require Import Model.MsgLoop.

(* [update] and [progress] map over the entries and leave the keys alone *)
Lemma lookup_map_entries (h : Z * entry -> Z * entry) j m :
  (forall je, fst (h je) = fst je) ->
  lookup j (map h m) = option_map (fun e => snd (h (j, e))) (lookup j m).
Proof.
  intros Hh. induction m as [|[k e] r IH]; [reflexivity|].
  cbn [map lookup]. specialize (Hh (k, e)). destruct (h (k, e)) as [k' e'] eqn:E. cbn [fst] in Hh. subst k'.
  destruct (Z.eqb_spec k j) as [->|]; [cbn [option_map]; rewrite E; reflexivity|exact IH].
Qed.

Lemma update_keeps_keys i f (je : Z * entry) :
  fst (if fst je =? i then (fst je, f (snd je)) else je) = fst je.
Proof. destruct (fst je =? i); reflexivity. Qed.

Lemma lookup_update i j f m :
  lookup j (update i f m) = if i =? j then option_map f (lookup j m) else lookup j m.
Proof.
  unfold update. rewrite lookup_map_entries by (intro; apply update_keeps_keys).
  cbn [fst snd]. rewrite (Z.eqb_sym j i). destruct (lookup j m); destruct (i =? j); reflexivity.
Qed.

Lemma lookup_progress t j m :
  lookup j (progress t m) =
  option_map (fun e => mkEntry (option_map (progress_snap t) (e_snap e)) (e_usable e)) (lookup j m).
Proof. unfold progress. rewrite lookup_map_entries by reflexivity. reflexivity. Qed.

Lemma lookup_remove i j m : lookup j (remove i m) = if i =? j then None else lookup j m.
Proof.
  induction m as [|[k e] r IH]; [destruct (i =? j); reflexivity|].
  cbn [remove]. destruct (Z.eqb_spec k i) as [->|Hki]; cbn [lookup]; rewrite IH.
  - destruct (i =? j); reflexivity.
  - destruct (Z.eqb_spec k j) as [->|]; [|reflexivity]. destruct (Z.eqb_spec i j); [congruence|reflexivity].
Qed.

Lemma update_absent i f m : lookup i m = None -> update i f m = m.
Proof.
  induction m as [|[j e] r IH]; intros H; [reflexivity|].
  cbn [lookup] in H. cbn [update map fst snd]. destruct (j =? i); [discriminate|].
  f_equal. apply IH. exact H.
Qed.

Lemma remove_absent i m : lookup i m = None -> remove i m = m.
Proof.
  induction m as [|[j e] r IH]; intros H; [reflexivity|].
  cbn [lookup] in H. cbn [remove]. destruct (j =? i); [discriminate|].
  f_equal. apply IH. exact H.
Qed.

Lemma core_progress t s : snap_core (progress_snap t s) = snap_core s.
Proof. unfold progress_snap. destruct (before t (snap_time s)); reflexivity. Qed.

(* the ids a map has entries for; [NoDup (keys m)], kept by every step (nodup_step), makes
   membership and [lookup] agree (in_lookup) *)
Definition keys (m : cmap) : list Z := map fst m.

Lemma keys_map_entries (h : Z * entry -> Z * entry) m :
  (forall je, fst (h je) = fst je) -> keys (map h m) = keys m.
Proof. intros Hh. unfold keys. rewrite map_map. apply map_ext. exact Hh. Qed.

Lemma keys_update i f m : keys (update i f m) = keys m.
Proof. apply keys_map_entries, update_keeps_keys. Qed.

Lemma keys_progress t m : keys (progress t m) = keys m.
Proof. apply keys_map_entries. reflexivity. Qed.

Lemma keys_remove i m : keys (remove i m) = filter (fun k => negb (k =? i)) (keys m).
Proof.
  induction m as [|[k e] r IH]; [reflexivity|].
  cbn [remove keys map fst filter]. destruct (k =? i); [exact IH|].
  cbn [negb map fst]. f_equal. exact IH.
Qed.

Lemma nodup_remove i m : NoDup (keys m) -> NoDup (keys (remove i m)).
Proof. intros H. rewrite keys_remove. apply NoDup_filter. exact H. Qed.

Lemma nodup_insert i e m : NoDup (keys m) -> NoDup (keys (insert i e m)).
Proof.
  intros H. unfold insert. cbn [keys map fst]. constructor; [|apply nodup_remove; exact H].
  change (~ In i (keys (remove i m))). rewrite keys_remove. intros Hin.
  apply filter_In in Hin. destruct Hin as [_ E]. rewrite Z.eqb_refl in E. discriminate E.
Qed.

Lemma in_lookup j e m : NoDup (keys m) -> (In (j, e) m <-> lookup j m = Some e).
Proof.
  induction m as [|[k e'] r IH]; intros Hnd.
  - split; [intros []|discriminate].
  - apply NoDup_cons_iff in Hnd. destruct Hnd as [Hn Hr]. cbn [lookup In].
    destruct (Z.eqb_spec k j) as [->|Hne].
    + split; [|intros [= ->]; left; reflexivity].
      intros [[= ->]|Hin]; [reflexivity|]. contradiction Hn. exact (in_map fst _ _ Hin).
    + rewrite <- (IH Hr). split; [|intros Hin; right; exact Hin].
      intros [[= Hk _]|Hin]; [contradiction|exact Hin].
Qed.

(* the state after a schedule is a left fold of the one-step function: what holds of a schedule
   cut in two or extended by one event is List.fold_left_app *)
Lemma run_from_fold W tr : forall c,
  fst (run_from W c tr) = fold_left (fun c ev => fst (handle W c ev)) tr c.
Proof.
  induction tr as [|ev r IH]; intros c; [reflexivity|].
  cbn [run_from fold_left]. rewrite <- IH.
  destruct (handle W c ev) as [c1 o]. cbn [fst]. destruct (run_from W c1 r). reflexivity.
Qed.

Lemma state_after_snoc W tr ev :
  state_after W (tr ++ [ev]) = fst (handle W (state_after W tr) ev).
Proof. unfold state_after. rewrite !run_from_fold, fold_left_app. reflexivity. Qed.

Lemma trun_from_fold W tr : forall s,
  fst (trun_from W s tr) = fold_left (fun s te => fst (thandle W s te)) tr s.
Proof.
  induction tr as [|te r IH]; intros s; [reflexivity|].
  cbn [trun_from fold_left]. rewrite <- IH.
  destruct (thandle W s te) as [s1 o]. cbn [fst]. destruct (trun_from W s1 r). reflexivity.
Qed.

Lemma tstate_after_snoc W tr te :
  tstate_after W (tr ++ [te]) = fst (thandle W (tstate_after W tr) te).
Proof. unfold tstate_after. rewrite !trun_from_fold, fold_left_app. reflexivity. Qed.

Lemma ops_of_cons i ev tr :
  ops_of i (ev :: tr) = if fst ev =? i then snd ev :: ops_of i tr else ops_of i tr.
Proof. unfold ops_of. cbn [filter]. destruct (fst ev =? i); reflexivity. Qed.

Lemma ops_of_app i a b : ops_of i (a ++ b) = ops_of i a ++ ops_of i b.
Proof. unfold ops_of. rewrite filter_app, map_app. reflexivity. Qed.

Lemma in_ops_of i o tr : In o (ops_of i tr) -> In (i, o) tr.
Proof.
  unfold ops_of. rewrite in_map_iff. intros ([j y] & <- & Hin).
  apply filter_In in Hin. destruct Hin as [Hin Hj]. apply Z.eqb_eq in Hj. cbn [fst] in Hj. subst j. exact Hin.
Qed.

(* what a message does to the source map: a function of the map and the message alone, whatever
   the selection, the steering decision and the vote are *)
Definition map_step (m : cmap) (ev : event) : cmap :=
  match ev with
  | (i, None) => insert i (mkEntry None false) m
  | (i, Some (SetUsable b)) => update i (fun e => mkEntry (e_snap e) b) m
  | (i, Some DropSrc) => remove i m
  | (i, Some (Measure s)) =>
      match lookup i m with
      | None => m
      | Some _ => if existsb (ahead (snap_update s)) (store i s m) then store i s m
                  else progress (snap_update s) (store i s m)
      end
  end.

(* [handle], inverted: either nothing is emitted and only the map changes, or select was reached
   and returned a non-empty selection *)
Lemma handle_cases W c ev c' o : handle W c ev = (c', o) ->
  let m := map_step (c_map c) ev in
  (c' = with_map m c /\ o = out0) \/
  exists L sel, select_input c ev = Some L /\ w_select W L = sel /\ sel <> [] /\
    let st := steer (c_slew c) (w_wish W (c_nsteer c) sel) in
    c' = mkCtl m false (snd (fst st)) (S (c_nsteer c)) /\
    o = mkOut ((if c_startup c then [1] else []) ++ fst (fst st) ++ [2]
               ++ match w_vote W sel with Some l => [30 + l] | None => [] end)
              (Some (map snap_id sel)) (snd st).
Proof.
  intros Hh.
  assert (c' = fst (handle W c ev) /\ o = snd (handle W c ev)) as [-> ->] by (rewrite Hh; split; reflexivity).
  clear Hh. destruct c as [m su sl n].
  (* add_source, a usability report and Dropped only change the map *)
  destruct ev as [i [[s|b|]|]]; cbn [handle map_step select_input c_map c_startup c_slew c_nsteer with_map];
    [|left; split; reflexivity..].
  (* a measurement *)
  destruct (lookup i m) as [e|].
  - (* of a registered source: update_clock runs *)
    unfold update_clock. cbn [c_map c_startup c_slew c_nsteer with_map].
    destruct (existsb _ _).
    + (* a stored snapshot is ahead of the update time: early return *)
      left. split; reflexivity.
    + destruct (w_select W _) as [|x r] eqn:Hsel.
      * (* "No consensus on current time" *)
        left. split; reflexivity.
      * (* a non-empty selection *)
        right. eexists. exists (x :: r).
        split; [reflexivity|]. split; [exact Hsel|]. split; [discriminate|]. split; reflexivity.
  - (* "Update from non-existing source" *)
    left. split; reflexivity.
Qed.

Lemma handle_map W c ev : c_map (fst (handle W c ev)) = map_step (c_map c) ev.
Proof.
  destruct (handle W c ev) as [c' o] eqn:Hh.
  destruct (handle_cases W c ev c' o Hh) as [[-> _]|(L & sel & _ & _ & _ & -> & _)]; reflexivity.
Qed.

Lemma select_input_candidates c ev L :
  select_input c ev = Some L -> L = candidates (map_step (c_map c) ev).
Proof.
  destruct ev as [i [[s|b|]|]]; cbn [select_input map_step]; try discriminate.
  destruct (lookup i (c_map c)); [|discriminate]. destruct (existsb _ _); [discriminate|].
  intros [= <-]. reflexivity.
Qed.

Lemma select_input_map_only c1 c2 ev : c_map c1 = c_map c2 -> select_input c1 ev = select_input c2 ev.
Proof. intros H. destruct ev as [j [[s|b|]|]]; cbn [select_input]; rewrite ?H; reflexivity. Qed.

Lemma handle_unregistered W c i o :
  lookup i (c_map c) = None -> handle W c (i, Some o) = (c, out0).
Proof.
  intros Hl. destruct c as [m su sl n]. cbn [c_map with_map] in Hl. destruct o as [s|b|]; cbn [handle c_map c_startup].
  - rewrite Hl. reflexivity.
  - rewrite update_absent by exact Hl. reflexivity.
  - rewrite remove_absent by exact Hl. reflexivity.
Qed.

Lemma run_map W tr : forall c, c_map (fst (run_from W c tr)) = fold_left map_step tr (c_map c).
Proof.
  intros c. rewrite run_from_fold. revert c.
  induction tr as [|ev r IH]; intros c; [reflexivity|].
  cbn [fold_left]. rewrite IH, handle_map. reflexivity.
Qed.

Lemma trun_map W tr : forall s,
  c_map (l_ctl (fst (trun_from W s tr))) = fold_left map_step (msgs tr) (c_map (l_ctl s)).
Proof.
  intros s. rewrite trun_from_fold. revert s.
  induction tr as [|[ev|] r IH]; intros s; [reflexivity| |]; cbn [fold_left]; rewrite IH; cbn [thandle].
  - cbn [fst l_ctl]. rewrite handle_map. reflexivity.
  - destruct (l_timer s); reflexivity.
Qed.

(* timer expiries are invisible to the source map: it is the map of the schedule's messages *)
Lemma tstate_map W tr : c_map (l_ctl (tstate_after W tr)) = c_map (state_after W (msgs tr)).
Proof. unfold tstate_after, state_after. rewrite trun_map, run_map. reflexivity. Qed.

Lemma nodup_step m ev : NoDup (keys m) -> NoDup (keys (map_step m ev)).
Proof.
  intros H. destruct ev as [i [[s|b|]|]]; cbn [map_step].
  - destruct (lookup i m); [|exact H].
    destruct (existsb _ _); unfold store; rewrite ?keys_progress, keys_update; exact H.
  - rewrite keys_update. exact H.
  - apply nodup_remove. exact H.
  - apply nodup_insert. exact H.
Qed.

Lemma nodup_fold tr : forall m, NoDup (keys m) -> NoDup (keys (fold_left map_step tr m)).
Proof. induction tr as [|ev r IH]; intros m H; [exact H|]. apply IH, nodup_step, H. Qed.

Lemma nodup_state_after W tr : NoDup (keys (c_map (state_after W tr))).
Proof. unfold state_after. rewrite run_map. apply nodup_fold. constructor. Qed.

(* [view_of] as a function of the map alone: what the map holds for source i, filter time left out *)
Definition view_m (i : Z) (m : cmap) : view :=
  option_map (fun e => (option_map snap_core (e_snap e), e_usable e)) (lookup i m).

Lemma view_of_m i c : view_of i c = view_m i (c_map c).
Proof. reflexivity. Qed.

Lemma view_progress t j m : view_m j (progress t m) = view_m j m.
Proof.
  unfold view_m. rewrite lookup_progress. destruct (lookup j m) as [e|]; [|reflexivity].
  cbn. destruct (e_snap e) as [s|]; [|reflexivity]. cbn. rewrite core_progress. reflexivity.
Qed.

Lemma view_step i o j m :
  view_m j (map_step m (i, o)) = if i =? j then src_step (view_m j m) o else view_m j m.
Proof.
  destruct o as [[s|b|]|]; cbn [map_step].
  - destruct (lookup i m) as [e|] eqn:Hl.
    + transitivity (view_m j (store i s m)); [destruct (existsb _ _); [reflexivity|apply view_progress]|].
      unfold view_m, store. rewrite lookup_update.
      destruct (Z.eqb_spec i j) as [<-|]; [rewrite Hl|]; reflexivity.
    + destruct (Z.eqb_spec i j) as [<-|]; [unfold view_m; rewrite Hl|]; reflexivity.
  - unfold view_m. rewrite lookup_update. destruct (i =? j); [destruct (lookup j m)|]; reflexivity.
  - unfold view_m. rewrite lookup_remove. destruct (i =? j); reflexivity.
  - unfold view_m, insert. cbn [lookup]. rewrite lookup_remove. destruct (i =? j); reflexivity.
Qed.

Lemma view_handle W c i o j :
  view_of j (fst (handle W c (i, o))) = if i =? j then src_step (view_of j c) o else view_of j c.
Proof. rewrite !view_of_m, handle_map. apply view_step. Qed.

Lemma view_fold j tr : forall m,
  view_m j (fold_left map_step tr m) = fold_left src_step (ops_of j tr) (view_m j m).
Proof.
  induction tr as [|[i o] r IH]; intros m; [reflexivity|].
  cbn [fold_left]. rewrite IH, view_step, ops_of_cons. cbn [fst snd]. destruct (i =? j); reflexivity.
Qed.

(* the controller's knowledge of source j is a function of source j's own events, in their order *)
Lemma view_state_after W j tr : view_of j (state_after W tr) = src_view (ops_of j tr).
Proof. unfold state_after. rewrite view_of_m, run_map. apply view_fold. Qed.

Lemma candidates_in m s :
  In s (candidates m) <-> exists j e, In (j, e) m /\ e_usable e = true /\ e_snap e = Some s.
Proof.
  unfold candidates. rewrite in_flat_map. split.
  - intros [[j e] [Hin Hs]]. cbn [snd] in Hs. destruct (e_usable e) eqn:Hu; [|destruct Hs].
    destruct (e_snap e) as [s'|] eqn:Hsn; [|destruct Hs]. destruct Hs as [<-|[]].
    exists j, e. auto.
  - intros (j & e & Hin & Hu & Hsn). exists (j, e). split; [exact Hin|].
    cbn [snd]. rewrite Hu, Hsn. left. reflexivity.
Qed.

Lemma candidates_view m : NoDup (keys m) -> forall k,
  In k (map snap_core (candidates m)) <-> exists j, view_m j m = Some (Some k, true).
Proof.
  intros Hnd k. rewrite in_map_iff. split.
  - intros (s & Hk & Hin). apply candidates_in in Hin. destruct Hin as (j & e & Hin & Hu & Hsn).
    exists j. unfold view_m. apply (in_lookup j e m Hnd) in Hin. rewrite Hin. cbn. rewrite Hsn, Hu, <- Hk. reflexivity.
  - intros (j & Hv). unfold view_m in Hv. destruct (lookup j m) as [e|] eqn:Hl; [|discriminate].
    cbn in Hv. destruct (e_snap e) as [s|] eqn:Hsn; [|discriminate]. cbn in Hv. inversion Hv as [[Hk Hu]].
    exists s. split; [reflexivity|]. apply candidates_in. exists j, e. split; [|auto].
    apply (in_lookup j e m Hnd). exact Hl.
Qed.

(* after any schedule the candidates are the (progressed) snapshots of the sources that -- by
   their OWN events so far -- are registered, were last reported usable, and have delivered a
   snapshot *)
Lemma candidates_state_after W tr k :
  In k (map snap_core (candidates (c_map (state_after W tr)))) <->
  exists j, src_view (ops_of j tr) = Some (Some k, true).
Proof.
  rewrite (candidates_view _ (nodup_state_after W tr)).
  setoid_rewrite <- (view_state_after W). reflexivity.
Qed.

(* whenever select is reached while handling ev after the schedule prefix pre, its argument is
   the candidate list of the map that handling ev leaves *)
Lemma select_input_spec W pre ev L :
  select_input (state_after W pre) ev = Some L ->
  forall k, In k (map snap_core L) <-> exists j, src_view (ops_of j (pre ++ [ev])) = Some (Some k, true).
Proof.
  intros Hsi k. apply select_input_candidates in Hsi. subst L.
  rewrite <- (handle_map W), <- state_after_snoc. apply candidates_state_after.
Qed.

Lemma select_input_spec_timed W pre ev L :
  select_input (l_ctl (tstate_after W pre)) ev = Some L ->
  forall k, In k (map snap_core L) <-> exists j, src_view (ops_of j (msgs (pre ++ [Msg ev]))) = Some (Some k, true).
Proof.
  intros Hsi. rewrite (select_input_map_only _ (state_after W (msgs pre)) ev (tstate_map W pre)) in Hsi.
  unfold msgs. rewrite flat_map_app. exact (select_input_spec W (msgs pre) ev L Hsi).
Qed.

(* next_update = Some comes from the start of a slew only: desired_freq == 0 before, non-zero after *)
Lemma steer_arms slew w : snd (steer slew w) = true -> slew = false /\ steer slew w = ([5], true, true).
Proof.
  unfold steer. destruct slew; cbn [negb andb]; [destruct (wi_freq w); discriminate|].
  destruct (wi_offset w); cbn [andb]; [destruct (wi_big w); [discriminate|]|destruct (wi_freq w); discriminate].
  intros _. split; reflexivity.
Qed.

Lemma steer_slew_kept w : snd (fst (steer true w)) = true.
Proof. unfold steer. cbn [negb andb]. destruct (wi_freq w); reflexivity. Qed.

(* no select, no clock call: every clock call of a handled message comes from the consensus branch *)
Lemma clock_calls_need_selection W c ev c' o :
  handle W c ev = (c', o) -> o_clock o <> [] ->
  exists L sel, select_input c ev = Some L /\ w_select W L = sel /\ sel <> [] /\
                o_used o = Some (map snap_id sel).
Proof.
  intros Hh Hc.
  destruct (handle_cases W c ev c' o Hh) as [[_ ->]|(L & sel & Hsi & Hsel & Hne & _ & ->)];
    [contradiction Hc; reflexivity|].
  exists L, sel. auto.
Qed.

(* only the consensus branch returns next_update = Some *)
Lemma next_update_needs_selection W c ev c' o :
  handle W c ev = (c', o) -> o_next o = true ->
  exists L sel, select_input c ev = Some L /\ w_select W L = sel /\ sel <> [] /\
                o_used o = Some (map snap_id sel) /\ In 5 (o_clock o) /\
                c_slew c = false /\ c_slew c' = true.
Proof.
  intros Hh Hn.
  destruct (handle_cases W c ev c' o Hh) as [[_ ->]|(L & sel & Hsi & Hsel & Hne & -> & ->)]; [discriminate|].
  cbn [o_next o_used o_clock c_slew] in *. destruct (steer_arms _ _ Hn) as [Hs E]. rewrite E. cbn [fst snd].
  exists L, sel. split; [exact Hsi|]. split; [exact Hsel|]. split; [exact Hne|]. split; [reflexivity|].
  split; [|split; [exact Hs|reflexivity]]. apply in_or_app. right. left. reflexivity.
Qed.

Lemma handle_slew_kept W c ev : c_slew c = true -> c_slew (fst (handle W c ev)) = true.
Proof.
  intros Hs. destruct (handle W c ev) as [c' o] eqn:Hh.
  destruct (handle_cases W c ev c' o Hh) as [[-> _]|(L & sel & _ & _ & _ & -> & _)]; [exact Hs|].
  cbn [fst c_slew]. rewrite Hs. apply steer_slew_kept.
Qed.

Lemma thandle_calls W s te s' o :
  thandle W s te = (s', o) -> o_clock o <> [] ->
  (exists ev L sel, te = Msg ev /\ select_input (l_ctl s) ev = Some L /\ w_select W L = sel /\ sel <> [] /\
                    o_used o = Some (map snap_id sel))
  \/ (te = TimeUpdate /\ l_timer s = true /\ o_clock o = [5] /\ o_used o = None /\ l_timer s' = false).
Proof.
  intros Hh Hc. destruct te as [ev|]; cbn [thandle] in Hh.
  - left. destruct (handle W (l_ctl s) ev) as [c' o'] eqn:Hhe. cbn [fst snd] in Hh. injection Hh as _ <-.
    destruct (clock_calls_need_selection W _ _ _ _ Hhe Hc) as (L & sel & H). exists ev, L, sel. auto.
  - right. destruct (l_timer s); injection Hh as <- <-; [auto|contradiction Hc; reflexivity].
Qed.

Lemma timer_off_after_expiry W s : l_timer (fst (thandle W s TimeUpdate)) = false.
Proof. cbn [thandle]. destruct (l_timer s) eqn:Ht; [reflexivity|exact Ht]. Qed.

(* the loop's invariant about its sleeper: it is enabled only while a slew is in progress, and
   then it was armed by a message of the schedule and has not fired since *)
Lemma timer_enabled W tr :
  l_timer (tstate_after W tr) = true ->
  c_slew (l_ctl (tstate_after W tr)) = true /\
  exists pre ev post, tr = pre ++ Msg ev :: post /\ (forall x, In x post -> x <> TimeUpdate) /\
                      o_next (snd (handle W (l_ctl (tstate_after W pre)) ev)) = true.
Proof.
  induction tr as [|te tr IH] using rev_ind; [discriminate|].
  rewrite tstate_after_snoc. destruct te as [ev|]; [|rewrite timer_off_after_expiry; discriminate].
  cbn [thandle fst l_timer l_ctl]. intros Ht.
  (* the last message armed the sleeper, or found it enabled *)
  destruct (o_next (snd (handle W (l_ctl (tstate_after W tr)) ev))) eqn:Hn.
  - split.
    + destruct (handle W (l_ctl (tstate_after W tr)) ev) as [c' o] eqn:Hh.
      destruct (next_update_needs_selection W _ _ _ _ Hh Hn) as (L & sel & _ & _ & _ & _ & _ & _ & Hs).
      exact Hs.
    + exists tr, ev, []. split; [reflexivity|]. split; [intros x []|exact Hn].
  - rewrite orb_false_r in Ht. destruct (IH Ht) as (Hs & pre & ev0 & post & -> & Hno & Harm).
    split; [apply handle_slew_kept, Hs|].
    exists pre, ev0, (post ++ [Msg ev]). split; [rewrite <- app_assoc; reflexivity|]. split; [|exact Harm].
    intros x Hx. apply in_app_or in Hx. destruct Hx as [Hx|[<-|[]]]; [apply Hno; exact Hx|discriminate].
Qed.

Lemma view_none_lookup i c : view_of i c = None -> lookup i (c_map c) = None.
Proof. unfold view_of. destruct (lookup i (c_map c)); [discriminate|reflexivity]. Qed.

(* a source stays unregistered until the system adds it *)
Lemma src_view_none_stays os : ~ In None os -> src_view os = None.
Proof.
  unfold src_view. induction os as [|o r IH]; intros H; [reflexivity|].
  cbn [fold_left]. replace (src_step None o) with (@None (option core * bool)).
  - apply IH. intros Hin. apply H. right. exact Hin.
  - destruct o as [[s|b|]|]; try reflexivity. contradiction H. left. reflexivity.
Qed.

Lemma src_view_dropped a b : src_view (a ++ Some DropSrc :: b) = src_view b.
Proof. unfold src_view. rewrite fold_left_app. reflexivity. Qed.

Lemma unregistered_after_removal i tr1 tr2 :
  (forall ev, In ev tr2 -> ev <> (i, None)) ->
  src_view (ops_of i (tr1 ++ (i, Some DropSrc) :: tr2)) = None.
Proof.
  intros Hno. rewrite ops_of_app, ops_of_cons. cbn [fst snd]. rewrite Z.eqb_refl, src_view_dropped.
  apply src_view_none_stays. intros Hin. apply in_ops_of in Hin. exact (Hno _ Hin eq_refl).
Qed.

(* a message of a source that is not registered (never added, or removed and not added again)
   changes nothing and emits nothing *)
Lemma ignored_when_unregistered W tr i o :
  src_view (ops_of i tr) = None ->
  handle W (state_after W tr) (i, Some o) = (state_after W tr, out0).
Proof.
  intros Hv. apply handle_unregistered. apply view_none_lookup. rewrite view_state_after. exact Hv.
Qed.

(* the log of snapshots the controller stores: (source, serial) in the order they are stored *)
Fixpoint stored_log (W : world) (c : ctl) (tr : list event) : list (Z * Z) :=
  match tr with
  | [] => []
  | ev :: r =>
      let here := match ev with
                  | (i, Some (Measure s)) =>
                      match lookup i (c_map c) with Some _ => [(i, snap_serial s)] | None => [] end
                  | _ => []
                  end in
      here ++ stored_log W (fst (handle W c ev)) r
  end.

(* the serials of the measurements a source sends while registered, v being what the controller
   holds for it before the events os: those are the ones stored *)
Fixpoint accepted (v : view) (os : list (option op)) : list Z :=
  match os with
  | [] => []
  | o :: r =>
      match o, v with
      | Some (Measure s), Some _ => [snap_serial s]
      | _, _ => []
      end ++ accepted (src_step v o) r
  end.

(* the serials of a script's measurements, in program order *)
Fixpoint measures (sc : list op) : list Z :=
  match sc with
  | [] => []
  | Measure s :: r => snap_serial s :: measures r
  | _ :: r => measures r
  end.

(* in every schedule, the snapshots stored for source j are a function of j's own events *)
Lemma stored_log_proj W j tr : forall c,
  map snd (filter (fun p => fst p =? j) (stored_log W c tr)) = accepted (view_of j c) (ops_of j tr).
Proof.
  induction tr as [|[i o] r IH]; intros c; [reflexivity|].
  cbn [stored_log]. rewrite filter_app, map_app, IH, ops_of_cons. cbn [fst snd].
  rewrite (view_handle W c i o j).
  destruct (Z.eqb_spec i j) as [->|Hne].
  - cbn [accepted]. f_equal.
    destruct o as [[s|b|]|]; try reflexivity.
    unfold view_of. destruct (lookup j (c_map c)); cbn; [rewrite Z.eqb_refl|]; reflexivity.
  - replace (map snd (filter _ _)) with (@nil Z); [reflexivity|].
    destruct o as [[s|b|]|]; try reflexivity.
    destruct (lookup i (c_map c)); [|reflexivity]. cbn.
    destruct (Z.eqb_spec i j); [contradiction|reflexivity].
Qed.

Lemma script_ok_tail x r : script_ok (x :: r) -> script_ok r.
Proof. intros H a b Hr. apply (H (x :: a) b). rewrite Hr. reflexivity. Qed.

Lemma accepted_script sc : script_ok sc -> forall e,
  accepted (Some e) (map Some sc) = measures sc.
Proof.
  induction sc as [|x r IH]; intros Hok e; [reflexivity|].
  pose proof (script_ok_tail x r Hok) as Hr.
  destruct x as [s|b|]; cbn [map accepted measures src_step app].
  - destruct e as [sn u]. f_equal. apply IH. exact Hr.
  - destruct e as [sn u]. apply IH. exact Hr.
  - assert (r = []) as -> by (apply (Hok [] r); reflexivity). reflexivity.
Qed.
